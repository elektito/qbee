(* C18 - INPUT assigns only well-typed values and re-prompts on bad lines.

   Specification (Models/Input.v part 1): spec_prompt_text, spec_fields,
   spec_value / spec_accept (strict = what C18 demands; lenient = the same
   relative to the numerals Python's int()/float() read), spec_run.
   Code (part 2): exec_input = TerminalDevice._exec_input of the unchanged tree,
   stack_at_io = what gen_input pushes, do_stores = its stores.
   exec_input_fixed (part 3) = the code after fixes/C18-D13.diff, which /repo
   has applied.

   The model has no memory and no cursor: _exec_input touches only the operand
   stack and the terminal, so "no change of memory" holds by construction;
   the operand stack is where the code leaves something behind (D13). *)
From Coq Require Import ZArith List Bool.
From QV Require Import Sx Strs Fl Cell Input InputProofs.
Import ListNotations.
Open Scope Z_scope.

(* the device decodes what the code generator pushed, for every statement *)
Theorem C18_protocol_decode : forall pv s lines st,
  i_tys s <> [] ->
  exec_input_gen pv lines (stack_at_io s st) =
  input_loop pv (i_question s) (i_prompt s) (flag (i_same_line s))
             (map ty_id (i_tys s)) lines st.
Proof. exact exec_decode. Qed.
Print Assumptions C18_protocol_decode.

(* before the user types, exactly the prompt text is shown: the literal
   prompt, then "? " iff there is no prompt or it is followed by ';' *)
Theorem C18_prompt_shape : forall sl f ts l rest st,
  ts <> [] ->
  exists pre tail,
    ires_evs (exec_input (l :: rest) (stack_at_io (stmt_of_form sl f ts) st))
    = pre ++ EInput (flag sl) l :: tail /\
    norm pre = [EPrint (spec_prompt_text f)].
Proof. exact prompt_shape. Qed.
Print Assumptions C18_prompt_shape.

(* a line is accepted iff it has one field per variable and every numeric
   field is a numeral (as read by int()/float()) that the type holds *)
Theorem C18_accept_iff : forall ts l st,
  (exists st', push_vars l (map ty_id ts) st = PVOk st') <->
  (exists vals, spec_accept false ts l = Some vals).
Proof. exact accept_iff. Qed.
Print Assumptions C18_accept_iff.

(* every line C18 calls acceptable is accepted, with the specified values *)
Theorem C18_accept_strict_sound : forall ts l st vals,
  spec_accept true ts l = Some vals ->
  push_vars l (map ty_id ts) st = PVOk (vals ++ st).
Proof.
  intros ts l st vals H. apply push_vars_accept, spec_values_strict_lenient, H.
Qed.
Print Assumptions C18_accept_strict_sound.

(* ... but not only those (D29): "1_0,nan" is accepted for an INTEGER and a
   SINGLE variable, "1e400" for a DOUBLE (stored as infinity) *)
Theorem C18_accept_only_wellformed_refuted :
  exists ts l st st', spec_accept true ts l = None /\ push_vars l (map ty_id ts) st = PVOk st'.
Proof.
  exists [VInt; VSingle], [49; 95; 48; 44; 110; 97; 110], [], [CI 10; CS FNaN].
  split; vm_compute; reflexivity.
Qed.
Print Assumptions C18_accept_only_wellformed_refuted.

Theorem C18_accept_overflow_refuted :
  exists l st', spec_accept true [VDouble] l = None /\
                push_vars l [ty_id VDouble] [] = PVOk st'.
Proof.
  exists [49; 101; 52; 48; 48], [CD (FInf false)].
  apply nonfinite_double; [reflexivity | exact py_float_1e400 | reflexivity].
Qed.
Print Assumptions C18_accept_overflow_refuted.

(* accepted fields end up on the stack first field on top, converted to their
   types, which is the order the stores of gen_input consume them *)
Theorem C18_assign_in_order : forall ts l st vals targets,
  spec_accept false ts l = Some vals ->
  length targets = length ts ->
  push_vars l (map ty_id ts) st = PVOk (vals ++ st) /\
  spec_values false ts (spec_fields l) = Some vals /\
  do_stores targets (vals ++ st) [] = Some (st, combine targets vals).
Proof. exact assign_in_order. Qed.
Print Assumptions C18_assign_in_order.

(* a rejected line leaves the stack unchanged - PARTIAL: true of the unchanged
   code only when the field count is wrong or the LAST field is the bad one.
   Missing: a bad field with good fields to its right (see _refuted). *)
Theorem C18_reject_no_effect_count_partial : forall tys l st,
  length (spec_fields l) <> length tys -> push_vars l tys st = PVReject st.
Proof. exact reject_count_clean. Qed.
Print Assumptions C18_reject_no_effect_count_partial.

Theorem C18_reject_no_effect_last_partial : forall ts t fs f l st,
  spec_fields l = fs ++ [f] ->
  spec_value false t f = None ->
  push_vars l (map ty_id (ts ++ [t])) st = PVReject st.
Proof. exact reject_last_clean. Qed.
Print Assumptions C18_reject_no_effect_last_partial.

(* the same at the level of the statement: "Redo from start", the prompt
   again, and the run continues from the unchanged stack *)
Theorem C18_reject_no_effect_partial : forall ts t fs f l rest s st,
  i_tys s = ts ++ [t] ->
  length (spec_fields l) <> length (i_tys s) \/
  (spec_fields l = fs ++ [f] /\ spec_value false t f = None) ->
  exec_input (l :: rest) (stack_at_io s st) =
  i_pre (redo_block (i_question s) (i_prompt s) (flag (i_same_line s)) l)
        (exec_input rest (stack_at_io s st)).
Proof.
  intros ts t fs f l rest s st Hty H. apply exec_reject; [rewrite Hty; now destruct ts|].
  destruct H as [H | [H1 H2]]; [apply reject_count_clean; now rewrite map_length|].
  rewrite Hty. now apply (reject_last_clean ts t fs f).
Qed.
Print Assumptions C18_reject_no_effect_partial.

(* generally: whenever the rejected line left nothing behind *)
Theorem C18_reject_restart_partial : forall s l rest st,
  i_tys s <> [] ->
  spec_accept false (i_tys s) l = None ->
  stale (map ty_id (i_tys s)) l = [] ->
  exec_input (l :: rest) (stack_at_io s st) =
  i_pre (redo_block (i_question s) (i_prompt s) (flag (i_same_line s)) l)
        (exec_input rest (stack_at_io s st)).
Proof.
  intros s l rest st Hne H Hs. apply exec_reject; [exact Hne|].
  now rewrite push_vars_known, H, Hs.
Qed.
Print Assumptions C18_reject_restart_partial.

(* D13: "x,5" for two INTEGER variables is rejected and the converted 5 stays *)
Theorem C18_reject_no_effect_refuted :
  exists tys l st st', push_vars l tys st = PVReject st' /\ st' <> st.
Proof.
  exists [1; 1], [120; 44; 53], [], [CI 5]. split; [vm_compute; reflexivity | discriminate].
Qed.
Print Assumptions C18_reject_no_effect_refuted.

(* so the final state after a rejected and an accepted line is NOT that of the
   accepted line alone ("x,5" then "1,2" for two INTEGER variables) *)
Theorem C18_retry_state_refuted :
  exists s bad good st,
    i_tys s <> [] /\
    spec_accept false (i_tys s) bad = None /\
    ires_stack (exec_input [bad; good] (stack_at_io s st)) <>
    ires_stack (exec_input [good] (stack_at_io s st)).
Proof.
  exists (stmt_of_form false FNone [VInt; VInt]), [120; 44; 53], [49; 44; 50], [].
  split; [discriminate|]. split; [vm_compute; reflexivity|]. vm_compute. discriminate.
Qed.
Print Assumptions C18_retry_state_refuted.

(* the repaired code: every rejected line leaves the stack unchanged *)
Theorem C18_reject_no_effect_fixed : forall l tys st st',
  push_vars_fixed l tys st = PVReject st' -> st' = st.
Proof.
  intros l tys st st'. rewrite push_vars_fixed_spec.
  destruct (push_vars l tys []); congruence.
Qed.
Print Assumptions C18_reject_no_effect_fixed.

Theorem C18_reject_restart_fixed : forall s l rest st,
  i_tys s <> [] ->
  spec_accept false (i_tys s) l = None ->
  exec_input_fixed (l :: rest) (stack_at_io s st) =
  i_pre (redo_block (i_question s) (i_prompt s) (flag (i_same_line s)) l)
        (exec_input_fixed rest (stack_at_io s st)).
Proof.
  intros s l rest st Hne H. apply exec_reject; [exact Hne|].
  now rewrite push_vars_fixed_known, H.
Qed.
Print Assumptions C18_reject_restart_fixed.

(* for every n: n rejected lines then an accepted one give n Redo messages
   and the values of the accepted line on top; in the unchanged code the cells
   the rejected lines left behind (stale) remain underneath *)
Theorem C18_retry_unbounded : forall n bad good more vals s st,
  length bad = n ->
  i_tys s <> [] ->
  (forall b, In b bad -> spec_accept false (i_tys s) b = None) ->
  spec_accept false (i_tys s) good = Some vals ->
  exec_input (bad ++ good :: more) (stack_at_io s st) =
  IDone (flat_map (redo_block (i_question s) (i_prompt s) (flag (i_same_line s))) bad
         ++ ask (i_question s) (i_prompt s) (flag (i_same_line s)) good)
        (vals ++ flat_map (stale (map ty_id (i_tys s))) (rev bad) ++ st).
Proof. exact retry_unbounded. Qed.
Print Assumptions C18_retry_unbounded.

(* the repaired code: the final state is that of the accepted line alone *)
Theorem C18_retry_unbounded_fixed : forall n bad good more vals s st,
  length bad = n ->
  i_tys s <> [] ->
  (forall b, In b bad -> spec_accept false (i_tys s) b = None) ->
  spec_accept false (i_tys s) good = Some vals ->
  exec_input_fixed (bad ++ good :: more) (stack_at_io s st) =
  IDone (flat_map (redo_block (i_question s) (i_prompt s) (flag (i_same_line s))) bad
         ++ ask (i_question s) (i_prompt s) (flag (i_same_line s)) good)
        (vals ++ st).
Proof.
  intros n bad good more vals s st _ Hne Hbad Hgood. unfold exec_input_fixed.
  rewrite exec_decode by exact Hne.
  rewrite (loop_retry _ _ _ (push_vars_fixed_known _) _ _ _ bad good more vals st Hbad Hgood).
  now rewrite (flat_map_nil (fun _ => [])).
Qed.
Print Assumptions C18_retry_unbounded_fixed.

(* every history: the repaired code shows the texts and leaves the values
   spec_run prescribes (relative to Python numerals), nothing else *)
Theorem C18_run_meets_spec_fixed : forall sl f ts lines st,
  ts <> [] ->
  meets (exec_input_fixed lines (stack_at_io (stmt_of_form sl f ts) st))
        (spec_run false f (flag sl) ts lines) st.
Proof.
  intros sl f ts lines st Hne.
  exact (exec_meets_spec _ _ sl f ts (push_vars_fixed_known ts) lines st Hne (fun _ _ => eq_refl)).
Qed.
Print Assumptions C18_run_meets_spec_fixed.

(* PARTIAL for the unchanged code: histories whose rejected lines are all
   clean rejections *)
Theorem C18_run_meets_spec_partial : forall sl f ts lines st,
  ts <> [] ->
  (forall l, In l lines -> stale (map ty_id ts) l = []) ->
  meets (exec_input lines (stack_at_io (stmt_of_form sl f ts) st))
        (spec_run false f (flag sl) ts lines) st.
Proof.
  intros sl f ts. exact (exec_meets_spec _ _ sl f ts (push_vars_known ts)).
Qed.
Print Assumptions C18_run_meets_spec_partial.

(* and the strict specification is the lenient one on histories without the
   D29 forms *)
Theorem C18_strict_run_agrees : forall f sl ts lines,
  (forall l, In l lines -> spec_accept true ts l = spec_accept false ts l) ->
  spec_run true f sl ts lines = spec_run false f sl ts lines.
Proof. exact strict_run_agrees. Qed.
Print Assumptions C18_strict_run_agrees.

(* non-vacuity:  INPUT "n"; a%, b!  answered  "x,5"  "1"  " 7 ,2.5"  *)
Example C18_example :
  exec_input [[120; 44; 53]; [49]; [32; 55; 32; 44; 50; 46; 53]]
             (stack_at_io (stmt_of_form false (FSemi [110]) [VInt; VSingle]) [CL 5])
  = IDone ([EPrint [110]; EPrint s_question; EInput 0 [120; 44; 53]; EPrint s_redo;
            EPrint [110]; EPrint s_question; EInput 0 [49]; EPrint s_redo;
            EPrint [110]; EPrint s_question; EInput 0 [32; 55; 32; 44; 50; 46; 53]])
          [CI 7; CS (FFin false 5 (-1)); CS (FFin false 5 0); CL 5].
Proof. vm_compute. reflexivity. Qed.

Example C18_example_spec :
  spec_run true (FSemi [110]) 0 [VInt; VSingle]
           [[120; 44; 53]; [49]; [32; 55; 32; 44; 50; 46; 53]]
  = SDone ([EPrint [110; 63; 32]; EInput 0 [120; 44; 53]; EPrint s_redo;
            EPrint [110; 63; 32]; EInput 0 [49]; EPrint s_redo;
            EPrint [110; 63; 32]; EInput 0 [32; 55; 32; 44; 50; 46; 53]])
          [CI 7; CS (FFin false 5 (-1))].
Proof. vm_compute. reflexivity. Qed.
