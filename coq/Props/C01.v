(* C01 - compiled programs do what their QBASIC source says.
   Only statements, each proved by [exact] or in a line or two from a theorem
   of Proofs/SemFacts.v, ExprStack.v, ExprCorrect.v, ExprSem.v, or by evaluating
   a witness of Proofs/ExprRefuted.v, and Print Assumptions.

   Models: Src/SemBase.v + Src/Sem.v = the reference semantics (specification);
   Models/ExprCodegen.v = the code generator for pure scalar expressions and
   qbee's static typing; Models/Cpu.v = the machine (tied to qvm/cpu.py by C07).

   What is proved: for the INTEGER/LONG expression fragment the generated code
   computes the reference value (or traps with the matching code); the stack
   discipline for every pure expression whose literals are numeric cells.  What is NOT proved (explored by the
   correspondence suites only): SINGLE/DOUBLE/STRING expressions, / \ MOD ^,
   builtin functions, arrays, records, calls, and all statements. *)
From Coq Require Import ZArith List Bool.
From QV Require Import Sx Strs Fl Cell Machine Cpu SemBase Sem ExprCodegen
     SemFacts ExprStack ExprCorrect ExprSem ExprRefuted.
Import ListNotations.
Open Scope Z_scope.

(* every operator result has the static type of the typing rules *)
Theorem C01_binop_result_type : forall o a b v,
  binop_sem no_quirks o a b = POk v ->
  binop_ty o (ty_of a) (ty_of b) = Some (ty_of v).
Proof. intros o a b v. now apply binop_ty_sound. Qed.
Print Assumptions C01_binop_result_type.

(* compile_expr_correct, for the sub-language in_fragment (INTEGER/LONG literals
   and local variables, unary - NOT +, parentheses, + - *, = <> < > <= >=, AND OR
   XOR EQV IMP, implicit INTEGER->LONG conversions).  For every machine state
   whose current frame holds the variables (unset cells allowed), every operand
   stack: the code pushes exactly the reference value v on top of the untouched
   stack, v has the static type qbee computed, the heap changes at most by
   materialising defaults of unset variables (mat), everything else in the
   state is unchanged (upd) - or it traps with the code of the reference error.
   _partial: missing are the float and string types, / \ MOD ^ (see the
   _refuted witnesses: \ MOD ^ are false on the unchanged tree), builtins,
   array elements, record fields and calls. *)
Theorem C01_compile_expr_correct_partial : forall m tyenv e,
  in_fragment e = true ->
  forall st g sg,
    frame_at st g sg -> vars_ok tyenv (s_cells sg) e ->
    match peval no_quirks (rho_of (s_cells sg)) e with
    | POk v =>
      exists h' sg',
        exec_list m (cg e) st = R tt (upd st h' (v :: stack st)) /\
        nthZ h' g = Some sg' /\ mat tyenv (s_cells sg) (s_cells sg') /\
        q_ty e = Some (ty_of v) /\ integral (ty_of v) = true /\ wf_cell v = true
    | PErr er => exists kw st', exec_list m (cg e) st = T (trap_of_err er) kw st'
    | PStuck _ => False
    end.
Proof.
  intros m tyenv e Hf st g sg [Hc [Hg Hh]] Hv.
  pose proof (frag_correct m st tyenv g Hc Hg e Hf _ (heap st) (stack st) Hv
                           (ex_intro _ sg (conj Hh (mat_refl _ _)))) as H.
  rewrite upd_same in H. exact H.
Qed.
Print Assumptions C01_compile_expr_correct_partial.

(* peval above IS the reference interpreter of Src/Sem.v on pure expressions
   (all operators and types, any quirk setting, any FUNCTION-call handler) *)
Theorem C01_peval_is_reference_eval : forall P q callf rho e s,
  sem_rel rho s e ->
  eval P q callf (to_expr e) s = res_of (peval q rho e) s.
Proof. exact peval_is_eval. Qed.
Print Assumptions C01_peval_is_reference_eval.

(* stack discipline, for every pure expression (any operator, any types, well
   typed or not) and every state: expression code never touches the stack
   below its start.  The guard only asks that a PLit holds a numeric cell, as
   the constructor intends (strings are PStrLit): for any other cell push_lit
   generates no code. *)
Theorem C01_stack_discipline : forall m e st,
  lits_numeric e = true ->
  match exec_list m (cg e) st with
  | R _ st' => exists v, stack st' = v :: stack st
  | T _ _ st' | ZD st' | X _ st' | NI st' => exists p, stack st' = p ++ stack st
  end.
Proof.
  intros m e st H. pose proof (cg_takes m e H [] _ st eq_refl eq_refl) as P.
  destruct (exec_list m (cg e) st); exact P.
Qed.
Print Assumptions C01_stack_discipline.

(* outside the guard the full statement is false on the unchanged tree *)
Theorem C01_compile_expr_intdiv_refuted : q_ty e_idiv = Some TI /\ disagrees e_idiv.
Proof.
  split; [reflexivity|]. eexists _, (CI (-4)), (CI (-3)).
  split; [vm_compute; reflexivity|]. split; [reflexivity|]. split; [vm_compute; reflexivity | discriminate].
Qed.
Print Assumptions C01_compile_expr_intdiv_refuted.

Theorem C01_compile_expr_mod_refuted : q_ty e_mod = Some TI /\ disagrees e_mod.
Proof.
  split; [reflexivity|]. eexists _, (CI 1), (CI (-1)).
  split; [vm_compute; reflexivity|]. split; [reflexivity|]. split; [vm_compute; reflexivity | discriminate].
Qed.
Print Assumptions C01_compile_expr_mod_refuted.

Theorem C01_compile_expr_pow_refuted : q_ty e_pow = Some TI /\ disagrees e_pow.
Proof.
  split; [reflexivity|]. eexists _, (CI 0), (CS (FFin false 1 (-1))).
  split; [vm_compute; reflexivity|]. split; [reflexivity|]. split; [vm_compute; reflexivity | discriminate].
Qed.
Print Assumptions C01_compile_expr_pow_refuted.

(* non-vacuity: (x% + 1) * 2 < y&  with x% = 1000 (frame cell 0) and y& unset
   (frame cell 1): the code leaves 0 (false) on the stack and materialises y& *)
Definition ex_e : pexpr :=
  PBin OLt (PBin OMul (PPar (PBin OAdd (PVar 0 TI) (PLit (CI 1)))) (PLit (CI 2))) (PVar 1 TL).
Definition ex_st : Machine.st :=
  let s := Machine.init_state m0 (mkScript [] [] [] []) in
  set_cur (set_heap s (heap s ++ [mkSeg [Some (CI 1000); None] (SFrame None 0 0 2)])) (Some 1).

Example C01_example :
  in_fragment ex_e = true /\
  peval no_quirks (rho_of [Some (CI 1000); None]) ex_e = POk (CI 0) /\
  (exists st', exec_list m0 (cg ex_e) ex_st = R tt st' /\ stack st' = [CI 0] /\
               nthZ (heap st') 1 = Some (mkSeg [Some (CI 1000); Some (CL 0)] (SFrame None 0 0 2))) /\
  (* and an overflow: 20000 + 20000 in INTEGER *)
  peval no_quirks (rho_of [Some (CI 1000); None]) (PBin OAdd (PLit (CI 20000)) (PLit (CI 20000))) = PErr EOverflow.
Proof.
  split; [reflexivity|]. split; [vm_compute; reflexivity|].
  split; [eexists; split; [vm_compute; reflexivity|]; split; reflexivity|].
  vm_compute. reflexivity.
Qed.
