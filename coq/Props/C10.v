(* C10 - ON ERROR, RESUME and RESUME NEXT follow statement-level semantics.
   Proofs: Proofs/ErrProofs.v, about the machine model (Models/Cpu.v: tick,
   do_trap = QvmCpu._trap, exec_errres = _exec_errres/_exec_errresn, find_stmt =
   DebugInfo.find_stmt).  The model describes the tree AFTER the fix commits
   for D19 (failing address recorded for division by zero), D45 (RESUME leaves
   the handler) and D20 (RESUME NEXT mode that cannot resume reports the error). *)
From Coq Require Import ZArith List Bool.
From QV Require Import Sx Strs Fl Cell Machine Cpu ErrProofs.
Import ListNotations.
Open Scope Z_scope.

(* armed and not already handling: ANY trap (whatever instruction raised it)
   transfers control to the handler, marks it active and records the code *)
Theorem C10_trap_enters_handler : forall m c kw s a,
  ttarget_ s = TAddr a -> handler_active s = false ->
  do_trap m c kw s = Next (set_handler_active (set_pc (set_last_trap s (Some c) kw) a) true).
Proof. exact trap_enters_handler. Qed.
Print Assumptions C10_trap_enters_handler.

Theorem C10_handler_state : forall s c kw a,
  let s' := set_handler_active (set_pc (set_last_trap s (Some c) kw) a) true in
  pc s' = a /\ handler_active s' = true /\ last_trap s' = Some c /\
  stack s' = stack s /\ heap s' = heap s /\ cur s' = cur s /\ events s' = events s /\
  trapped_addr s' = trapped_addr s /\ ttarget_ s' = ttarget_ s.
Proof. destruct s; cbn; repeat split; reflexivity. Qed.
Print Assumptions C10_handler_state.

(* ERR identifies the kind of error *)
Theorem C10_err_identifies : forall m s c,
  last_trap s = Some c -> in_int c = true ->
  exec m IErrget s = R tt (set_stack s (CI c :: stack s)).
Proof.
  intros m s c Hl Hc. unfold exec, bind, get. rewrite Hl.
  unfold push, bind, mk_cell. rewrite Hc. destruct s; reflexivity.
Qed.
Print Assumptions C10_err_identifies.

(* the address of the failing instruction is recorded for EVERY error source:
   a raised trap ... *)
Theorem C10_failing_address_recorded : forall m s i size c kw s3,
  in_code m s ->
  decode (skipn (Z.to_nat (pc s)) (m_code m)) = DOk i size ->
  (forall idx, i <> IPushStr idx) ->
  exec m i (pre_exec s size) = T c kw s3 ->
  tick m s = end_check m (do_trap m c kw (set_trapped_addr s3 (prev_pc s3))).
Proof. intros m s i size c kw s3 Hc Hd Hn He. rewrite (tick_exec m s i size Hc Hd Hn), He. reflexivity. Qed.
Print Assumptions C10_failing_address_recorded.

(* ... and a division by zero (ZeroDivisionError path of tick) *)
Theorem C10_failing_address_recorded_zerodiv : forall m s i size s3,
  in_code m s ->
  decode (skipn (Z.to_nat (pc s)) (m_code m)) = DOk i size ->
  (forall idx, i <> IPushStr idx) ->
  exec m i (pre_exec s size) = ZD s3 ->
  tick m s = end_check m (do_trap m T_DIVISION_BY_ZERO true (set_trapped_addr s3 (prev_pc s3))).
Proof. intros m s i size s3 Hc Hd Hn He. rewrite (tick_exec m s i size Hc Hd Hn), He. reflexivity. Qed.
Print Assumptions C10_failing_address_recorded_zerodiv.

(* the statement lookup returns an innermost record containing the address, and
   one whenever any record contains it *)
Theorem C10_find_stmt_innermost : forall stmts addr,
  match find_stmt stmts addr with
  | Some r => contains r addr /\ forall r', In r' stmts -> contains r' addr -> size_of r <= size_of r'
  | None => forall r', In r' stmts -> ~ contains r' addr
  end.
Proof. exact find_stmt_innermost. Qed.
Print Assumptions C10_find_stmt_innermost.

(* RESUME re-executes the statement containing the failing instruction, RESUME
   NEXT continues after it; both leave the handler; nothing else changes *)
Theorem C10_resume : forall m stmts s a b next,
  m_stmts m = Some stmts -> trapped_addr s <> 0 ->
  find_stmt stmts (trapped_addr s) = Some (a, b) ->
  exec_errres m next s = R tt (set_handler_active (set_pc s (if next then b else a)) false).
Proof. exact resume_sets_pc. Qed.
Print Assumptions C10_resume.

Theorem C10_resumed_state : forall s p,
  let s' := set_handler_active (set_pc s p) false in
  pc s' = p /\ handler_active s' = false /\ stack s' = stack s /\ heap s' = heap s /\
  cur s' = cur s /\ events s' = events s /\ ttarget_ s' = ttarget_ s.
Proof. destruct s; cbn; repeat split; reflexivity. Qed.
Print Assumptions C10_resumed_state.

(* ON ERROR RESUME NEXT skips the failing statement without entering a handler *)
Theorem C10_resume_next_mode : forall m stmts c kw s a b,
  ttarget_ s = TNext -> handler_active s = false ->
  m_stmts m = Some stmts -> trapped_addr s <> 0 ->
  find_stmt stmts (trapped_addr s) = Some (a, b) ->
  do_trap m c kw s = Next (set_handler_active (set_pc (set_last_trap s (Some c) kw) b) false).
Proof. exact resume_next_mode. Qed.
Print Assumptions C10_resume_next_mode.

(* ON ERROR GOTO 0 restores default error reporting *)
Theorem C10_goto0_disarms : forall m s,
  handler_active s = false -> exec m (IErrhand 0) s = R tt (set_ttarget s TNone).
Proof. intros m s Ha. unfold exec, bind, get. rewrite Ha. reflexivity. Qed.
Print Assumptions C10_goto0_disarms.

Theorem C10_error_in_handler_halts : forall m c s,
  handler_active s = true ->
  do_trap m c true s = Next (set_halt (set_last_trap s (Some c) true) true H_TRAP).
Proof. intros m c s Ha. unfold do_trap. destruct s; cbn in *. subst. reflexivity. Qed.
Print Assumptions C10_error_in_handler_halts.

(* "execution proceeds as if the failed statement had not been started" holds
   for the program counter and handler state (above) but NOT for the operand
   stack: the machine does not unwind (C10_resumed_state: stack s' = stack s, the
   stack at the moment of the error, not at the start of the statement).
   Refutation on the faithful model: a state with two pending operands keeps
   them across RESUME NEXT. *)
Theorem C10_as_if_not_started_refuted :
  exists m s s', m_stmts m = Some [(0, 10)] /\ trapped_addr s = 5 /\ stack s = [CI 1; CI 5] /\
                 exec_errres m true s = R tt s' /\ pc s' = 10 /\ stack s' = [CI 1; CI 5].
Proof.
  exists (mkModule [] [] [] 0 (Some [(0, 10)])).
  exists (mkSt 7 5 [CI 1; CI 5] [] None false H_NONE (Some 14) true (TAddr 20) true 5 false 0 0 None
               (mkScript [] [] [] []) []).
  eexists. repeat split; try reflexivity.
Qed.
Print Assumptions C10_as_if_not_started_refuted.
