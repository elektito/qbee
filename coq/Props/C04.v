(* C04 - Variables, array elements and record fields never overlap or leak.
   Statements, each proved by [exact] or by a derivation of a few lines from a
   theorem of Proofs/LayoutProofs.v, and Print Assumptions.
   Models: Models/Layout.v (qvm/memlayout.py, array header, _exec_arridx) and
   the machine model Models/Cpu.v (read*/readidx*/store*/deref*/frame...).

   Vocabulary: [denotes env t p o k] = the well-formed access path p (index
   tuples inside the declared bounds, existing field names) into an object of
   type t ends o cells after its start, at a scalar of builtin type k;
   [cellat h g i] = content of cell i of heap segment g;
   [upd_heap h g i c] = h with exactly that cell replaced. *)
From Coq Require Import ZArith List Bool Lia.
From QV Require Import Sx Strs Fl Cell Layout Machine Cpu ListIndex LayoutProofs.
Import ListNotations.
Open Scope Z_scope.

(* every well-formed path of a declared variable denotes a cell inside
   [0, total) - the frame (params ++ locals) resp. the global area *)
Theorem C04_paths_in_frame : forall env ds v i t p o k total,
  wf_env env -> wf_decls ds ->
  var_idx_from env ds v 0 = Some i -> decl_ty ds v = Some t ->
  denotes env t p o k ->
  sizes_sum env ds = Some total ->
  0 <= i + o < total.
Proof. exact paths_in_frame. Qed.
Print Assumptions C04_paths_in_frame.

Theorem C04_local_paths_in_frame : forall env ps ls v i t p o k fsz,
  wf_env env -> wf_decls (ps ++ ls) ->
  local_var_idx env ps ls v = Some i -> decl_ty (ps ++ ls) v = Some t ->
  denotes env t p o k -> frame_size env ps ls = Some fsz -> 0 <= i + o < fsz.
Proof. intros env ps ls v i t p o k fsz. rewrite frame_size_sum. apply paths_in_frame. Qed.
Print Assumptions C04_local_paths_in_frame.

(* two well-formed paths to scalar cells that reach the same cell are the same
   variable and the same path (contrapositive: distinct paths, distinct cells) *)
Theorem C04_paths_disjoint : forall env ds total v1 i1 t1 p1 o1 k1 v2 i2 t2 p2 o2 k2,
  wf_env env -> wf_decls ds -> sizes_sum env ds = Some total ->
  var_idx_from env ds v1 0 = Some i1 -> decl_ty ds v1 = Some t1 -> denotes env t1 p1 o1 k1 ->
  var_idx_from env ds v2 0 = Some i2 -> decl_ty ds v2 = Some t2 -> denotes env t2 p2 o2 k2 ->
  i1 + o1 = i2 + o2 ->
  v1 = v2 /\ p1 = p2 /\ k1 = k2.
Proof. exact paths_disjoint. Qed.
Print Assumptions C04_paths_disjoint.

Theorem C04_paths_injective : forall env t p1 o k1,
  denotes env t p1 o k1 -> wf_env env -> wf_ty t ->
  forall sz, type_size env t = Some sz ->
  forall p2 k2, denotes env t p2 o k2 -> p1 = p2 /\ k1 = k2.
Proof. exact @paths_injective. Qed.
Print Assumptions C04_paths_injective.

Theorem C04_fields_disjoint : forall env fs f1 f2 acc o1 t1 o2 t2 s1 s2,
  wf_env env -> wf_fields fs ->
  field_offset env fs f1 acc = Some (o1, t1) ->
  field_offset env fs f2 acc = Some (o2, t2) ->
  type_size env t1 = Some s1 -> type_size env t2 = Some s2 ->
  f1 <> f2 ->
  o1 + s1 <= o2 \/ o2 + s2 <= o1.
Proof. exact @fields_disjoint. Qed.
Print Assumptions C04_fields_disjoint.

(* mixed-radix row-major numbering is injective on in-range index tuples *)
Theorem C04_elem_number_injective : forall bs i1 i2 n,
  Forall (fun b => fst b <= snd b) bs ->
  elem_number bs i1 = Some n -> elem_number bs i2 = Some n -> i1 = i2.
Proof. exact @elem_number_inj. Qed.
Print Assumptions C04_elem_number_injective.

Theorem C04_elements_disjoint : forall base es bs i1 i2 c1 c2,
  Forall (fun b => fst b <= snd b) bs -> 0 < es ->
  elem_index base es bs i1 = Some c1 -> elem_index base es bs i2 = Some c2 ->
  i1 <> i2 -> c1 + es <= c2 \/ c2 + es <= c1.
Proof.
  intros base es bs i1 i2 c1 c2 Hb Hes H1 H2 Hne.
  apply elem_index_Some in H1 as (n1 & E1 & ->), H2 as (n2 & E2 & ->).
  assert (n1 <> n2) by (intros <-; eauto using elem_number_inj). nia.
Qed.
Print Assumptions C04_elements_disjoint.

(* the cell _exec_arridx returns lies after the header and inside a segment
   that holds header + array_cells cells from base on *)
Theorem C04_arridx_in_segment : forall base es bs idxs c n,
  Forall (fun b => fst b <= snd b) bs -> 0 < es -> 0 <= base ->
  elem_index base es bs idxs = Some c ->
  base + header_size bs + array_cells es bs <= n ->
  base + header_size bs <= c /\ c + es <= n.
Proof.
  intros base es bs idxs c n Hb Hes _ He Hn.
  destruct (elem_index_in_array _ _ _ _ _ Hb Hes He). lia.
Qed.
Print Assumptions C04_arridx_in_segment.

(* ... and the machine's arridx computes exactly that cell *)
Theorem C04_arridx_machine : forall m g base es bs idxs rest s sg c,
  stack s = CRef g base :: map CL (rev idxs) ++ rest ->
  0 <= g -> 0 <= base -> nth_error (heap s) (Z.to_nat g) = Some sg ->
  has_header (s_cells sg) base es bs ->
  elem_index base es bs idxs = Some c ->
  exec m (IArridx (rank bs)) s = R tt (set_stack s (CRef g c :: rest)).
Proof. exact arridx_ok. Qed.
Print Assumptions C04_arridx_machine.

(* allocarr allocates at least the reachable cells (it over-allocates for rank >= 2, element size >= 2) *)
Theorem C04_heap_array_large_enough : forall es bs,
  Forall (fun b => fst b <= snd b) bs -> 1 <= es -> bs <> [] ->
  array_cells es bs <= heap_array_cells es bs.
Proof. exact heap_array_cells_ge. Qed.
Print Assumptions C04_heap_array_large_enough.

(* every well-formed path into a dynamic array stays inside the segment allocarr creates *)
Theorem C04_heap_array_paths_in_segment : forall env bs e p o k es,
  denotes env (TArray bs e) p o k -> wf_env env -> wf_ty (TArray bs e) ->
  type_size env e = Some es -> 1 <= es -> bs <> [] ->
  0 <= o < header_size bs + heap_array_cells es bs.
Proof.
  intros env bs e p o k es D He Hw Hes H1 Hne.
  assert (Hs : type_size env (TArray bs e) = Some (array_cells es bs + header_size bs))
    by (now rewrite type_size_array, Hes).
  pose proof (paths_in_object D He Hw Hs). pose proof (heap_array_cells_ge es bs (proj1 Hw) H1 Hne). lia.
Qed.
Print Assumptions C04_heap_array_paths_in_segment.

(* field chains are addressed by get_dotted_index, elements of arrays of records
   by arridx followed by get_dotted_index *)
Theorem C04_field_chain_dotted : forall env t chain o k,
  denotes env t (map SFld chain) o k -> dotted_index env t chain = Some o.
Proof. exact denotes_dotted. Qed.
Print Assumptions C04_field_chain_dotted.

Theorem C04_element_field_chain : forall env bs e idxs chain o k,
  denotes env (TArray bs e) (SIdx idxs :: map SFld chain) o k ->
  exists es c d, type_size env e = Some es /\ elem_index 0 es bs idxs = Some c /\
                 dotted_index env e chain = Some d /\ o = c + d.
Proof.
  intros env bs e idxs chain o k D. inversion D as [| | ? ? ? ? num es ? o' ? Hn He Hd]; subst.
  exists es, (header_size bs + num * es), o'. unfold elem_index. rewrite Hn.
  eauto using denotes_dotted.
Qed.
Print Assumptions C04_element_field_chain.

(* STATIC variables: `_static_<routine>_<name>` is distinct per (routine, name)
   and never a SHARED name; identifiers contain no underscore (grammar) *)
Theorem C04_static_names_distinct : forall r1 n1 r2 n2,
  ~ In ch_us r1 -> ~ In ch_us r2 ->
  static_full_name r1 n1 = static_full_name r2 n2 -> r1 = r2 /\ n1 = n2.
Proof.
  unfold static_full_name. intros r1 n1 r2 n2 H1 H2 E. apply app_inv_head in E.
  now apply app_no_us_inj.
Qed.
Print Assumptions C04_static_names_distinct.

Theorem C04_static_not_shared : forall r n (g : str) c,
  hd_error g = Some c -> c <> ch_us -> static_full_name r n <> g.
Proof. intros r n g c H Hc <-. inversion H. auto. Qed.
Print Assumptions C04_static_not_shared.

(* D14: `frame` pops params_size cells, callers push one per parameter.
   guarded: every parameter type has size 1 (builtin, array parameter, 1-cell record).
   Missing for the full statement: record parameters with two or more cells. *)
Theorem C04_frame_pops_what_callers_push_partial : forall env ps,
  Forall (fun d => type_size env (snd d) = Some 1) ps ->
  params_size env ps = Some (params_size_fixed ps).
Proof. exact params_size_fixed_ok. Qed.
Print Assumptions C04_frame_pops_what_callers_push_partial.

(* witness (LayoutProofs.d14_env / d14_params): TYPE r: a, b AS INTEGER / SUB f(p AS r) *)
Theorem C04_frame_pops_what_callers_push_refuted : exists env ps,
  wf_env env /\ wf_decls ps /\
  params_size env ps <> Some (params_size_fixed ps).
Proof. exists d14_env, d14_params. repeat split; try repeat constructor. discriminate. Qed.
Print Assumptions C04_frame_pops_what_callers_push_refuted.

(* the frame lemma: after cell (g, j) is written it holds the value, every other
   cell of every segment is unchanged, no segment appears or disappears *)
Theorem C04_read_over_write : forall h g j c sg,
  nth_error h g = Some sg -> (j < length (s_cells sg))%nat ->
  cellat (upd_heap h g j c) g j = Some c /\
  (forall g' j', (g', j') <> (g, j) -> cellat (upd_heap h g j c) g' j' = cellat h g' j') /\
  length (upd_heap h g j c) = length h.
Proof.
  intros h g j c sg Hg Hj.
  exact (conj (cellat_upd_same h g j c sg Hg Hj) (conj (cellat_upd_other h g j c) (upd_heap_length h g j c))).
Qed.
Print Assumptions C04_read_over_write.

(* store / storeidx / storeref write exactly the addressed cell *)
Theorem C04_store_writes_one_cell : forall m l i v rest s g sg,
  stack s = v :: rest -> scope_ok l s g -> 0 <= g ->
  nth_error (heap s) (Z.to_nat g) = Some sg -> 0 <= i < Z.of_nat (length (s_cells sg)) ->
  exec m (IStore l i) s
  = R tt (with_hs s (upd_heap (heap s) (Z.to_nat g) (Z.to_nat i) (Some v)) rest).
Proof. intros m l. destruct l; exact (pop_write_ok _). Qed.   (* Cpu.exec spells write_var out per scope for IStore *)
Print Assumptions C04_store_writes_one_cell.

Theorem C04_storeidx_writes_one_cell : forall m l v0 i v rest s g sg,
  stack s = v :: rest -> scope_ok l s g -> 0 <= g ->
  nth_error (heap s) (Z.to_nat g) = Some sg -> 0 <= v0 + i < Z.of_nat (length (s_cells sg)) ->
  exec m (IStoreidx l v0 i) s
  = R tt (with_hs s (upd_heap (heap s) (Z.to_nat g) (Z.to_nat (v0 + i)) (Some v)) rest).
Proof. exact (fun m l v0 i => pop_write_ok l (v0 + i)). Qed.
Print Assumptions C04_storeidx_writes_one_cell.

Theorem C04_storeref_writes_one_cell : forall m g i v rest s sg,
  stack s = CRef g i :: v :: rest -> 0 <= g ->
  nth_error (heap s) (Z.to_nat g) = Some sg -> 0 <= i < Z.of_nat (length (s_cells sg)) ->
  exec m IStoreref s
  = R tt (with_hs s (upd_heap (heap s) (Z.to_nat g) (Z.to_nat i) (Some v)) rest).
Proof.
  intros m g i v rest s sg Hst Hg Hs Hi. cbv beta iota delta [exec].
  rewrite (bind_R (pop_ref_ok Hst)). cbv beta iota. rewrite (bind_R (pop_ok (s := set_stack s (v :: rest)) eq_refl)).
  exact (seg_set_ok (s := set_stack s rest) Hg Hs Hi).
Qed.
Print Assumptions C04_storeref_writes_one_cell.

(* reading a written cell changes nothing in memory *)
Theorem C04_read_changes_nothing : forall m l ty i s g sg c,
  (ty =? 7) = false -> scope_ok l s g -> 0 <= g ->
  nth_error (heap s) (Z.to_nat g) = Some sg -> 0 <= i ->
  nth_error (s_cells sg) (Z.to_nat i) = Some (Some c) ->
  exec m (IRead l ty i) s = R tt (set_stack s (c :: stack s)).
Proof. exact read_set_pure. Qed.
Print Assumptions C04_read_changes_nothing.

Theorem C04_deref_changes_nothing : forall m ty g i rest s sg c,
  stack s = CRef g i :: rest -> 0 <= g -> nth_error (heap s) (Z.to_nat g) = Some sg -> 0 <= i ->
  nth_error (s_cells sg) (Z.to_nat i) = Some (Some c) ->
  exec m (IDeref ty) s = R tt (set_stack s (c :: rest)).
Proof. exact deref_set_pure. Qed.
Print Assumptions C04_deref_changes_nothing.

Theorem C04_readidx_set_changes_nothing : forall m l ty v i s g sg c,
  (ty =? 7) = false -> scope_ok l s g -> 0 <= g ->
  nth_error (heap s) (Z.to_nat g) = Some sg -> 0 <= v + i ->
  nth_error (s_cells sg) (Z.to_nat (v + i)) = Some (Some c) ->
  exec m (IReadidx l ty v i) s = R tt (set_stack s (c :: stack s)).
Proof. exact readidx_set_pure. Qed.
Print Assumptions C04_readidx_set_changes_nothing.

(* a never-written cell reads as 0 / "" and only that cell is touched *)
Theorem C04_read_unset_default : forall m l ty i s g sg,
  (ty =? 7) = false -> scope_ok l s g -> 0 <= g ->
  nth_error (heap s) (Z.to_nat g) = Some sg -> 0 <= i ->
  nth_error (s_cells sg) (Z.to_nat i) = Some None ->
  exec m (IRead l ty i) s
  = R tt (with_hs s (upd_heap (heap s) (Z.to_nat g) (Z.to_nat i) (Some (default_cell ty)))
                  (default_cell ty :: stack s)).
Proof. exact (fun m l ty i s g sg => read_generic_ok l ty i s g sg None). Qed.
Print Assumptions C04_read_unset_default.

Theorem C04_deref_unset_default : forall m ty g i rest s sg,
  stack s = CRef g i :: rest -> 0 <= g -> nth_error (heap s) (Z.to_nat g) = Some sg -> 0 <= i ->
  nth_error (s_cells sg) (Z.to_nat i) = Some None ->
  exec m (IDeref ty) s
  = R tt (with_hs s (upd_heap (heap s) (Z.to_nat g) (Z.to_nat i) (Some (default_cell ty)))
                  (default_cell ty :: rest)).
Proof. exact (fun m ty g i rest s sg => deref_ok m ty g i rest s sg None). Qed.
Print Assumptions C04_deref_unset_default.

(* D15 was repaired in /repo (fix commit): the instruction is the corrected one *)
Theorem C04_readidx_is_fixed : forall m l ty v i s,
  exec m (IReadidx l ty v i) s = exec_readidx_fixed l ty v i s.
Proof. reflexivity. Qed.
Print Assumptions C04_readidx_is_fixed.

(* corrected instruction (write_var(scope, var + idx, value)): pure on a set
   cell, and an unset cell gets its default in place *)
Theorem C04_readidx_fixed_pure : forall l ty v i s g sg,
  (ty =? 7) = false -> scope_ok l s g -> 0 <= g ->
  nth_error (heap s) (Z.to_nat g) = Some sg -> 0 <= v + i ->
  (forall c, nth_error (s_cells sg) (Z.to_nat (v + i)) = Some (Some c) ->
     exec_readidx_fixed l ty v i s = R tt (set_stack s (c :: stack s))) /\
  (nth_error (s_cells sg) (Z.to_nat (v + i)) = Some None ->
     exec_readidx_fixed l ty v i s
     = R tt (with_hs s (upd_heap (heap s) (Z.to_nat g) (Z.to_nat (v + i)) (Some (default_cell ty)))
                     (default_cell ty :: stack s))).
Proof.
  intros l ty v i s g sg Hty Hsc Hg Hs Hi. unfold exec_readidx_fixed. rewrite Hty.
  split; [intros c Hc | intros Hc]; exact (read_generic_ok l ty (v + i) s g sg _ Hty Hsc Hg Hs Hi Hc).
Qed.
Print Assumptions C04_readidx_fixed_pure.

(* a by-reference argument names exactly (segment, cell) *)
Theorem C04_pushrefl_names_cell : forall m i s g,
  cur s = Some g -> exec m (IPushrefl i) s = R tt (set_stack s (CRef g i :: stack s)).
Proof. intros m i s g Hc. cbv beta iota delta [exec]. unfold bind, cur_frame. now rewrite Hc. Qed.
Print Assumptions C04_pushrefl_names_cell.

Theorem C04_refidx_offsets_cell : forall m g i z rest s,
  stack s = CI z :: CRef g i :: rest ->
  exec m IRefidx s = R tt (set_stack s (CRef g (i + z) :: rest)).
Proof.
  intros m g i z rest s Hst. cbv beta iota delta [exec]. rewrite (bind_R (pop_ok Hst)).
  now rewrite (bind_R (pop_ref_ok (s := set_stack s (CRef g i :: rest)) eq_refl)).
Qed.
Print Assumptions C04_refidx_offsets_cell.

(* `frame p l` appends ONE new segment (id = old heap length, so not a segment
   of the old heap), leaves every existing segment as it is, makes it current;
   its cells are given by bind_args *)
Theorem C04_frame_fresh : forall m p l s ret_addr stk cells' stk',
  stack s = CL ret_addr :: stk -> 0 <= p -> 0 <= l -> in_long ret_addr = true ->
  bind_args (Z.of_nat (length (heap s))) (Z.to_nat p) stk (repeat None (Z.to_nat (p + l)))
    = Some (cells', stk') ->
  exec m (IFrame p l) s
  = R tt (set_cur (with_hs s (heap s ++ [mkSeg cells' (SFrame (cur s) (pc s) ret_addr (p + l))])
                          (CL ret_addr :: stk'))
                  (Some (Z.of_nat (length (heap s))))).
Proof. exact frame_ok. Qed.
Print Assumptions C04_frame_fresh.

(* ... where: the popped values are the arguments (last parameter on top); the
   cells k.. of the initial frame (the locals) are untouched, i.e. unset; a
   reference argument is stored as the caller's (segment, cell); any other value
   becomes a temporary appended to the NEW frame and the parameter refers to it *)
Theorem C04_frame_arguments : forall g k stk cells cells' stk',
  bind_args g k stk cells = Some (cells', stk') -> (k <= length cells)%nat ->
  exists vals,
    length vals = k /\ stk = rev vals ++ stk' /\
    (length cells <= length cells')%nat /\
    (forall j, (k <= j < length cells)%nat -> nth_error cells' j = nth_error cells j) /\
    (forall j a, nth_error vals j = Some a ->
       match a with
       | CRef _ _ => nth_error cells' j = Some (Some a)
       | _ => exists n, (length cells <= n)%nat /\
                        nth_error cells' j = Some (Some (CRef g (Z.of_nat n))) /\
                        nth_error cells' n = Some (Some a)
       end).
Proof.
  intros g k stk cells cells' stk' Hb Hk.
  exact (bind_args_spec g (length cells) k stk cells cells' stk' Hb Hk (le_n _)).
Qed.
Print Assumptions C04_frame_arguments.

(* TYPE rb: a AS INTEGER, s AS STRING / TYPE rc: l AS LONG, i AS rb, d AS DOUBLE;
   DIM x AS INTEGER, arr(-1 TO 1, 2 TO 3) AS rc : arr(0, 3).i.s is cell 1 + 7 + (1*2+1)*4 + 2 = 22 *)
Definition ex_env : renv :=
  [([114; 99], [([108], TBuiltin 2); ([105], TRecord [114; 98]); ([100], TBuiltin 4)]);
   ([114; 98], [([97], TBuiltin 1); ([115], TBuiltin 5)])].
Definition ex_decls : decls :=
  [([120], TBuiltin 1); ([97], TArray [(-1, 1); (2, 3)] (TRecord [114; 99]))].

Example C04_example_sizes :
  type_size ex_env (TRecord [114; 99]) = Some 4 /\
  sizes_sum ex_env ex_decls = Some 32 /\
  var_idx_from ex_env ex_decls [97] 0 = Some 1 /\
  elem_index 1 4 [(-1, 1); (2, 3)] [0; 3] = Some 20 /\
  dotted_index ex_env (TArray [(-1, 1); (2, 3)] (TRecord [114; 99])) [[105]; [115]] = Some 2.
Proof. vm_compute. repeat split; reflexivity. Qed.

Example C04_example_path :
  denotes ex_env (TArray [(-1, 1); (2, 3)] (TRecord [114; 99]))
          [SIdx [0; 3]; SFld [105]; SFld [115]] (7 + 3 * 4 + (1 + 1)) 5.
Proof.
  eapply (DElem ex_env [(-1, 1); (2, 3)] (TRecord [114; 99]) [0; 3] 3 4); [reflexivity | reflexivity |].
  eapply (DField ex_env [114; 99] _ _ [105] 1 (TRecord [114; 98])); [reflexivity | reflexivity |].
  eapply (DField _ [114; 98] _ _ [115] 1 (TBuiltin 5) [] 0); [reflexivity | reflexivity |].
  constructor.
Qed.

(* `frame 2, 1` with a by-value 5 and a reference argument *)
Example C04_example_frame :
  bind_args 1 2 [CRef 0 3; CI 5; CL 99] [None; None; None]
  = Some ([Some (CRef 1 3); Some (CRef 0 3); None; Some (CI 5)], [CL 99]).
Proof. vm_compute. reflexivity. Qed.
