(* C20 - compilation and execution are deterministic.
   Statements, each proved by [exact] or by a line or two from a theorem of
   Proofs/DeterminismProofs.v.

   What a Gallina model can and cannot say here.  [Cpu.run] and every function
   of Models/Determinism.v are closed terms: their value is determined by their
   arguments - there is no way to mention a hash seed, a clock, a working
   directory or "what was compiled before" in them.  That half of the property
   is therefore a typing fact of the model, not a theorem, and it is the
   perturbed correspondence of tools/props/c20.py (same program under different
   hash seeds, process histories, directories, times, threads, machine
   interleavings, all compared with one reference value and with the extracted
   model) that establishes that the IMPLEMENTATION is such a function.  The
   theorems below are the parts with content:
   - the result of a run does not depend on how much fuel the harness gives it,
     once the machine stops by itself (so "the" result of a run is well defined
     and the tick count is an intrinsic quantity);
   - two machines ticking alternately, in any schedule, each behave as alone;
   - the places where the compiler goes through a Python set (DEFtype letters,
     the label set) give results independent of the enumeration order, and the
     places where it goes through dict / list order (DATA parts, literal table)
     are functions of the source order alone, described explicitly. *)
From Coq Require Import ZArith List Bool Permutation.
From QV Require Import Sx Strs Machine Cpu Determinism DeterminismProofs.
Import ListNotations.
Open Scope Z_scope.

(* more fuel never changes a run that stopped by itself *)
Theorem C20_run_fuel_mono : forall m f s t s' k n,
  run m f s t = (s', k, n) -> k <> StFuel ->
  forall f', (f <= f')%nat -> run m f' s t = (s', k, n).
Proof. exact run_fuel_mono. Qed.
Print Assumptions C20_run_fuel_mono.

(* a run is a function of (module, script): any two harness runs that reach the
   end agree on the final state, on the interaction trace and on the number of
   instructions executed, whatever their tick limits *)
Theorem C20_run_deterministic : forall m sc f1 f2 s1 n1 s2 n2,
  run m f1 (init_state m sc) 0 = (s1, StHalt, n1) ->
  run m f2 (init_state m sc) 0 = (s2, StHalt, n2) ->
  s1 = s2 /\ events s1 = events s2 /\ n1 = n2.
Proof. exact run_deterministic. Qed.
Print Assumptions C20_run_deterministic.

(* the same for every way of stopping (halt, host exception, script exhausted),
   from any state *)
Theorem C20_run_deterministic_any_stop : forall m s t f1 f2 s1 k1 n1 s2 k2 n2,
  run m f1 s t = (s1, k1, n1) -> run m f2 s t = (s2, k2, n2) ->
  k1 <> StFuel -> k2 <> StFuel ->
  s1 = s2 /\ k1 = k2 /\ n1 = n2.
Proof. exact run_deterministic_gen. Qed.
Print Assumptions C20_run_deterministic_any_stop.

(* two machines, any schedule of single ticks: each ends where it would have
   ended alone after as many ticks as it was given *)
Theorem C20_interleaving_independent : forall m1 m2 order s1 s2,
  sched m1 m2 order (s1, StFuel, 0) (s2, StFuel, 0) =
  (run m1 (count_b true order) s1 0, run m2 (count_b false order) s2 0).
Proof. intros m1 m2 order s1 s2. exact (sched_runs m1 m2 order 0%nat 0%nat s1 s2). Qed.
Print Assumptions C20_interleaving_independent.

(* one DEFtype statement: the letter set may be iterated in any order *)
Theorem C20_deftype_order_irrelevant : forall letters letters' tab ty,
  Permutation letters letters' ->
  forall k, letter_type (apply_deftype tab letters ty) k =
            letter_type (apply_deftype tab letters' ty) k.
Proof. exact deftype_order_irrelevant. Qed.
Print Assumptions C20_deftype_order_irrelevant.

(* what the statement does, independent of any order *)
Theorem C20_deftype_lookup : forall letters tab ty k,
  letter_type (apply_deftype tab letters ty) k =
  if mem Z.eqb k (map lower letters) then Some ty else letter_type tab k.
Proof. exact deftype_lookup. Qed.
Print Assumptions C20_deftype_lookup.

(* a whole program's DEFtype statements, each set enumerated arbitrarily *)
Theorem C20_deftypes_order_irrelevant : forall s s', stmts_perm s s' ->
  forall k, letter_type (apply_deftypes [] s) k = letter_type (apply_deftypes [] s') k.
Proof. intros s s' H k. now apply deftypes_order_irrelevant. Qed.
Print Assumptions C20_deftypes_order_irrelevant.

(* the label set is only asked "is x a member": any set implementation (any way
   [ins] places a new element) gives the same verdict - no duplicate / first
   duplicate / first undefined target *)
Theorem C20_labels_set_membership_only : forall i1 i2 decls uses,
  ins_ok i1 -> ins_ok i2 -> check_labels i1 decls uses = check_labels i2 decls uses.
Proof. exact labels_set_membership_only. Qed.
Print Assumptions C20_labels_set_membership_only.

Theorem C20_labels_membership_perm : forall x l1 l2,
  Permutation l1 l2 -> mem str_eqb x l1 = mem str_eqb x l2.
Proof. exact (mem_perm str_eqb str_eqb_eq). Qed.
Print Assumptions C20_labels_membership_perm.

(* DATA parts: the parts are the labels in order of their first DATA statement
   (each once), and a part holds the items of its statements in source order *)
Theorem C20_data_parts_insertion_order : forall (stmts : list (option str * list str)),
  dict_keys (group_data okey_eqb stmts) = first_occ okey_eqb [] (map fst stmts) /\
  NoDup (dict_keys (group_data okey_eqb stmts)) /\
  forall k, dict_get okey_eqb (group_data okey_eqb stmts) k =
            if mem okey_eqb k (map fst stmts) then Some (items_of okey_eqb k stmts) else None.
Proof.
  intros stmts. unfold group_data. split; [|split].
  - apply (group_keys_gen okey_eqb stmts []).
  - rewrite (group_keys_gen okey_eqb). apply (first_occ_nodup okey_eqb okey_eqb_spec), NoDup_nil.
  - intros k. apply (group_items_gen okey_eqb okey_eqb_spec stmts []).
Qed.
Print Assumptions C20_data_parts_insertion_order.

(* the literal table holds each distinct literal once, in order of first use *)
Theorem C20_literal_table_first_occurrence : forall occ,
  literal_table occ = first_occ str_eqb [] occ /\ NoDup (literal_table occ).
Proof.
  intros occ. unfold literal_table. rewrite literal_table_gen. split; [reflexivity|].
  apply (first_occ_nodup str_eqb str_eqb_eq occ []), NoDup_nil.
Qed.
Print Assumptions C20_literal_table_first_occurrence.

(* a concrete module (push0%; halt) halts by itself; two different tick limits *)
Example C20_run_example :
  let m := mkModule [52; 100] [] [] 0 None in
  let s0 := init_state m (mkScript [] [] [] []) in
  exists s n, run m 7 s0 0 = (s, StHalt, n) /\ run m 1000 s0 0 = (s, StHalt, n).
Proof. eexists. eexists. split; vm_compute; reflexivity. Qed.

(* the dict really differs with the iteration order; its lookups do not *)
Example C20_deftype_example :
  apply_deftype [] [97; 98; 99] 1 <> apply_deftype [] [99; 97; 98] 1 /\
  map (letter_type (apply_deftype [(98, 5)] [65; 98; 99] 1)) [97; 98; 99; 100] =
  map (letter_type (apply_deftype [(98, 5)] [99; 65; 98] 1)) [97; 98; 99; 100].
Proof. split; [vm_compute; discriminate | vm_compute; reflexivity]. Qed.

Example C20_labels_example :
  check_labels ins_front [[97]; [98]; [99]] [[98]; [100]; [97]] = LUndefined 1 /\
  check_labels ins_back [[97]; [98]; [99]] [[98]; [100]; [97]] = LUndefined 1 /\
  check_labels ins_back [[97]; [98]; [97]] [] = LDuplicate 2.
Proof. vm_compute. repeat split; reflexivity. Qed.

Example C20_data_example :
  group_data okey_eqb [(None, [[49]]); (Some [108], [[50]]); (None, [[51]]); (Some [108], [[52]; [53]])] =
  [(None, [[49]; [51]]); (Some [108], [[50]; [52]; [53]])].
Proof. vm_compute. reflexivity. Qed.
