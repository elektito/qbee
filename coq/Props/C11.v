(* C11 - the debug map attributes every instruction to its source statement.
   Statements, each proved by [exact] or by a short derivation from theorems
   of Proofs/, and Print Assumptions.  Model: Models/DebugMap.v
   (DebugInfoCollector + QvmCode.assembled offsets, DebugInfo.add_node,
   finalize, find_stmt, convert_index_to_line_col).  Specification
   vocabulary (wf_markers, on_boundary, laminar, good, open_at) and proofs:
   Proofs/DebugMapProofs.v, DebugMapFinalize.v, DebugMapCover.v,
   DebugMapLines.v, DebugMapWitness.v, DebugMapCpu.v. *)
From Coq Require Import ZArith List Bool Lia.
From QV Require Import DebugMap DebugMapProofs DebugMapFinalize DebugMapCover DebugMapLines
  DebugMapWitness DebugMapCpu.
From QV Require Cpu.
Import ListNotations.
Open Scope Z_scope.

(* For every well-nested marker stream the assertion in
   DebugInfoCollector.end_node never fires (and nothing is popped from an
   empty stack): a table is produced, for the whole code. *)
Theorem C11_collect_total : forall l, wf_markers l ->
  exists routines stmts others, debug_map l = DOk routines stmts others (size l).
Proof. intros l H. rewrite (debug_map_wf l H). eauto. Qed.
Print Assumptions C11_collect_total.

(* Every offset in the final table - statement records including the
   synthesised block start/end records, routine records, other nodes - is the
   offset of an instruction start or the end of the code. *)
Theorem C11_records_on_boundaries : forall l, wf_markers l ->
  forall routines stmts others sz, debug_map l = DOk routines stmts others sz ->
  sz = size l /\
  (forall r, In r stmts -> on_boundary 0 l (r_start r) /\ on_boundary 0 l (r_end r)) /\
  (forall k s e, In (k, (s, e)) routines -> on_boundary 0 l s /\ on_boundary 0 l e) /\
  (forall r, In r others -> on_boundary 0 l (r_start r) /\ on_boundary 0 l (r_end r)).
Proof.
  intros l H. destruct (collected_on_boundaries l H 0) as [A B].
  exact (table_offsets (on_boundary 0 l) l H A B).
Qed.
Print Assumptions C11_records_on_boundaries.

(* Any two ranges the collector records (statements, blocks, routines) are
   nested or disjoint. *)
Theorem C11_records_laminar : forall l, wf_markers l ->
  forall s, run (cinit 0) l = COk s ->
  forall n1 s1 e1 n2 s2 e2, In (n1, s1, e1) (c_nodes s) -> In (n2, s2, e2) (c_nodes s) ->
  laminar s1 e1 s2 e2.
Proof.
  intros l H s. rewrite (run_cinit l 0 H). intros [= <-]. apply (collected_laminar l H 0).
Qed.
Print Assumptions C11_records_laminar.

(* ... but the FINAL table is not laminar, even for generator-shaped streams:
   the synthesised end record of a block starts at the end of the child with
   the greatest START offset, which can be a statement nested in the last
   child.  Witness: single-line IF as last statement of a WHILE body. *)
Theorem C11_final_table_laminar_refuted :
  exists l, good true l /\
  exists routines stmts others sz, debug_map l = DOk routines stmts others sz /\
  exists r1 r2, In r1 stmts /\ In r2 stmts /\ ~ rec_laminar r1 r2.
Proof.
  exists w1. split; [exact w1_good|]. exists [], w1_table, [], 70. split; [exact w1_debug_map|].
  exists (mkRec 6 39 64), (mkRec 4 59 69). split; [simpl; tauto|]. split; [simpl; tauto|].
  unfold rec_laminar, laminar. simpl. lia.
Qed.
Print Assumptions C11_final_table_laminar_refuted.

(* Each routine record spans exactly the marker range of its SUB/FUNCTION
   node (gen_sub_block / gen_func_block: from the frame instruction to the
   byte after the final ret / retv), provided the node identity is recorded
   with one range only. *)
Theorem C11_routine_records_exact : forall pre n body post a b,
  wf_markers pre -> wf_markers body -> wf_markers post ->
  nk n = KRoutine a b ->
  (forall m s e, In (m, s, e) (nodes_at 0 (pre ++ Start n :: body ++ End n :: post)) ->
                 nid m = nid n -> s = size pre /\ e = size pre + size body) ->
  forall routines stmts others sz,
  debug_map (pre ++ Start n :: body ++ End n :: post) = DOk routines stmts others sz ->
  In (nid n, (size pre, size pre + size body)) routines.
Proof.
  intros pre n body post a b Hp Hb Hq K U routines stmts others sz.
  assert (W : wf_markers (Start n :: body ++ End n :: post)) by (constructor; assumption).
  rewrite (debug_map_wf _ (wf_app _ _ Hp W)). intros [= <- _ _ _].
  apply (routine_recorded _ n _ _ a b K); [|exact U].
  rewrite nodes_at_app, nodes_at_node by assumption. apply in_or_app. right. apply in_elt.
Qed.
Print Assumptions C11_routine_records_exact.

(* The lookup, on ANY table: the answer contains addr, no record containing
   addr is strictly smaller, and it is the first such record in table order. *)
Theorem C11_find_stmt_innermost : forall stmts addr r,
  find_stmt stmts addr = FFound r ->
  In r stmts /\ r_start r <= addr < r_end r /\
  (forall r', In r' stmts -> r_start r' <= addr < r_end r' -> rsize r <= rsize r') /\
  (exists l1 l2, stmts = l1 ++ r :: l2 /\
     forall r', In r' l1 -> r_start r' <= addr < r_end r' -> rsize r < rsize r').
Proof.
  intros stmts addr r E. pose proof (find_stmt_spec stmts addr) as S. rewrite E in S. exact S.
Qed.
Print Assumptions C11_find_stmt_innermost.

Theorem C11_find_stmt_sound : forall stmts addr r,
  find_stmt stmts addr = FFound r -> In r stmts /\ r_start r <= addr < r_end r.
Proof.
  intros stmts addr r E. split; apply (C11_find_stmt_innermost stmts addr r E).
Qed.
Print Assumptions C11_find_stmt_sound.

Theorem C11_find_stmt_complete : forall stmts addr,
  (exists r, In r stmts /\ r_start r <= addr < r_end r) <->
  (exists r, find_stmt stmts addr = FFound r).
Proof.
  intros stmts addr. pose proof (find_stmt_spec stmts addr) as S.
  destruct (find_stmt stmts addr) as [r| | |]; try contradiction.
  - split; [eauto|]. intros _. exists r. split; apply S.
  - split; intros (r & H); [destruct (S r (proj1 H) (proj2 H)) | discriminate].
Qed.
Print Assumptions C11_find_stmt_complete.

Theorem C11_find_stmt_none : forall stmts addr,
  find_stmt stmts addr = FNone <->
  (forall r, In r stmts -> ~ (r_start r <= addr < r_end r)).
Proof.
  intros stmts addr. pose proof (find_stmt_spec stmts addr) as S.
  destruct (find_stmt stmts addr) as [r| | |]; try contradiction.
  - split; [discriminate|]. intros H. destruct S as (Hin & Hc & _). destruct (H r Hin Hc).
  - split; [intros _; exact S | reflexivity].
Qed.
Print Assumptions C11_find_stmt_none.

(* the lookup of the machine model (Models/Cpu.v find_stmt, used by its
   RESUME / RESUME NEXT and tied to the real machine by the T-run suites) is
   this lookup: all find_stmt theorems here speak about what the machine does *)
Theorem C11_find_stmt_is_machine_lookup : forall stmts addr,
  Cpu.find_stmt (map rng stmts) addr =
  match DebugMap.find_stmt stmts addr with
  | FFound r => Some (rng r)
  | _ => None
  end.
Proof.
  intros stmts addr. rewrite cpu_find_stmt_fold, fold_merge, find_stmt_char.
  destruct (hd_error _); reflexivity.
Qed.
Print Assumptions C11_find_stmt_is_machine_lookup.

(* D41: the "if blocks:" branch of find_stmt (undefined names) is unreachable *)
Theorem C11_find_stmt_block_branch_dead : forall stmts addr,
  find_stmt stmts addr <> FNameError.
Proof.
  intros stmts addr E. pose proof (find_stmt_spec stmts addr) as S. rewrite E in S. exact S.
Qed.
Print Assumptions C11_find_stmt_block_branch_dead.

(* body_covered.  For every generator-shaped stream ([good true]: see
   Proofs/DebugMapCover.v) every address inside the range of ANY Block -
   SUB/FUNCTION bodies included - lies in a statement record of the final
   table that itself lies inside the block: a child statement, or the
   synthesised start/end record.
   _partial: [good] demands of each Block that (a) no bare instruction sits
   between its child statements and (b) it has code inside a child, or an
   _empty_block marker strictly before its end offset.  (a) holds for all
   generators of qvm_codegen.py; (b) is the gap: it fails for accepted
   programs, see C11_body_covered_refuted. *)
Theorem C11_body_covered_partial : forall l, good true l ->
  forall routines stmts others sz, debug_map l = DOk routines stmts others sz ->
  forall s, run (cinit 0) l = COk s ->
  forall n bs be, In (n, bs, be) (c_nodes s) -> is_block_node n = true ->
  forall addr, bs <= addr < be ->
  exists r, In r stmts /\ r_start r <= addr < r_end r /\ bs <= r_start r /\ r_end r <= be.
Proof.
  intros l G routines stmts others sz HD s HR n bs be Hin K. pose proof (good_wf _ _ G) as W.
  rewrite (debug_map_wf l W) in HD. rewrite (run_cinit l 0 W) in HR.
  injection HD as _ <- _ _. injection HR as <-.
  apply (blocks_covered l G n), in_blocks_of. split; assumption.
Qed.
Print Assumptions C11_body_covered_partial.

(* without guard (b): a block whose children emit no code and whose only
   marker sits at its end offset gets no record at all
   (IF c THEN / CONST k = 5 / END IF) *)
Theorem C11_body_covered_refuted :
  exists l, wf_markers l /\
  exists routines stmts others sz, debug_map l = DOk routines stmts others sz /\
  exists s n bs be addr,
    run (cinit 0) l = COk s /\ In (n, bs, be) (c_nodes s) /\ is_block_node n = true /\
    bs <= addr < be /\ find_stmt stmts addr = FNone.
Proof.
  exists w2. split; [exact w2_wf|]. exists [], w2_table, [], 48. split; [exact w2_debug_map|].
  eexists. exists (bl 2 3 4), 16, 39, 16. split; [exact (run_cinit w2 0 w2_wf)|].
  split; [vm_compute; tauto|]. split; [reflexivity|]. split; [lia | reflexivity].
Qed.
Print Assumptions C11_body_covered_refuted.

(* attribution, the part that holds: if a non-block statement n was the
   innermost open node when the instruction at addr was emitted ([open_at] =
   the collector's stack at that instruction), then n has a record containing
   addr in the final table, and the lookup answers with a record that
   contains addr and is at most as large as n's.
   _partial: it does not say the answer IS n's record - see the refutation. *)
Theorem C11_attribution_stmt_partial : forall l, wf_markers l ->
  forall routines stmts others sz, debug_map l = DOk routines stmts others sz ->
  forall addr n rest, open_at l 0 [] addr = Some (n :: rest) -> nk n = KStmt ->
  exists s e, In (mkRec (nid n) s e) stmts /\ s <= addr < e /\
  exists r, find_stmt stmts addr = FFound r /\ r_start r <= addr < r_end r /\ rsize r <= e - s.
Proof.
  intros l W routines stmts others sz HD addr n rest HO K.
  destruct (open_node_collected l W addr n rest HO) as (s & e & Hin & Hc).
  pose proof (stmt_in_table l W _ _ _ _ HD n s e Hin K) as HT.
  exists s, e. split; [exact HT|]. split; [exact Hc|]. exact (find_stmt_no_larger stmts addr _ HT Hc).
Qed.
Print Assumptions C11_attribution_stmt_partial.

(* attribution: an instruction emitted while statement n was the innermost
   open node should be looked up as n.  Refuted on the faithful model: the
   jump closing a single-line IF at the end of a loop body is answered with
   the loop's end statement. *)
Theorem C11_attribution_refuted :
  exists l, good true l /\
  exists routines stmts others sz, debug_map l = DOk routines stmts others sz /\
  exists addr n rest r,
    open_at l 0 [] addr = Some (n :: rest) /\ nk n = KStmt /\
    find_stmt stmts addr = FFound r /\ r_node r <> nid n.
Proof.
  exists w1. split; [exact w1_good|]. exists [], w1_table, [], 70. split; [exact w1_debug_map|].
  exists 59, (st 6), [bl 2 3 4], (mkRec 4 59 69).
  split; [reflexivity|]. split; [reflexivity|]. split; [reflexivity | discriminate].
Qed.
Print Assumptions C11_attribution_refuted.

(* recorded line of a source offset = 1 + number of newlines before it *)
Theorem C11_line_correct : forall text off,
  0 <= off < Z.of_nat (length text) ->
  exists col, index_to_line_col text off =
              Some (1 + count_nl (firstn (Z.to_nat off) text), col).
Proof.
  intros text off H. rewrite index_to_line_col_nat by lia.
  destruct (idx2lc_some text (Z.to_nat off) 1 0) as (c & E & _); [lia | eauto].
Qed.
Print Assumptions C11_line_correct.

(* an offset at/after the end of the text has no line (None, None) *)
Theorem C11_line_none : forall text off,
  off < 0 \/ Z.of_nat (length text) <= off -> index_to_line_col text off = None.
Proof.
  intros text off H. unfold index_to_line_col.
  destruct (Z.ltb_spec off 0); [reflexivity | apply idx2lc_none; lia].
Qed.
Print Assumptions C11_line_none.

(* column convention of the unchanged code: 0-based on the first line ... *)
Theorem C11_col_first_line : forall text off,
  0 <= off < Z.of_nat (length text) -> count_nl (firstn (Z.to_nat off) text) = 0 ->
  index_to_line_col text off = Some (1, off).
Proof.
  intros text off H N. rewrite index_to_line_col_nat by lia.
  destruct (idx2lc_some text (Z.to_nat off) 1 0) as (c & E & Hc); [lia|].
  rewrite E, N, (Hc N), Z2Nat.id by lia. reflexivity.
Qed.
Print Assumptions C11_col_first_line.

(* ... and 1-based on every later line *)
Theorem C11_col_later_line : forall a b j,
  (j < length b)%nat -> count_nl (firstn j b) = 0 ->
  index_to_line_col (a ++ 10 :: b) (Z.of_nat (length a + S j)) =
  Some (2 + count_nl a, 1 + Z.of_nat j).
Proof.
  intros a b j H N. rewrite index_to_line_col_nat, Nat2Z.id, idx2lc_col_nextline by (assumption || lia).
  do 2 f_equal. lia.
Qed.
Print Assumptions C11_col_later_line.

(* non-vacuity: the stream of  x = 1 / WHILE x < 3 / x = x + 1 /
   IF x = 2 THEN PRINT 1002 / WEND  as the real compiler emits it at -O0 -g,
   and the table the real compiler produces for it *)
Example C11_example_table : debug_map w1 = DOk [] w1_table [] 70.
Proof. exact w1_debug_map. Qed.

Example C11_example_good : good true w3 /\
  debug_map w3 = DOk [] [mkRec 2 11 19; mkRec 3 19 24; mkRec 4 24 27] [] 28 /\
  find_stmt [mkRec 2 11 19; mkRec 3 19 24; mkRec 4 24 27] 14 = FFound (mkRec 2 11 19).
Proof. split; [exact w3_good|]. split; [exact w3_debug_map | reflexivity]. Qed.

Example C11_example_assert :
  debug_map [Start (st 1); Ins 1; End (st 2)] = DAssert /\
  debug_map [Ins 1; End (st 2)] = DPopEmpty.
Proof. split; reflexivity. Qed.
