(* C09 - binary module, loader, disassembler and assembly listing agree.
   Statements, each proved by [exact] or by a line or two from a theorem of
   Proofs/InstrsOk.v, CodecProofs.v, SectionProofs.v, ListingProofs.v,
   TargetsProofs.v; Print Assumptions. *)
From Coq Require Import String.
From Coq Require Import ZArith List Bool.
From QV Require Import Sx Strs Fl Machine Cpu Instrs Codec InstrCheck Listing Targets.
From QV Require Import InstrsOk CodecProofs SectionProofs ListingProofs TargetsProofs.
Import ListNotations.
Open Scope Z_scope.

(* the instruction table of qvm/instrs.py (regenerated on every run) against
   the hand-written decoder and mnemonics: finite obligations *)

Theorem C09_opcodes_unique : opcodes_unique instr_table = true.
Proof. exact opcodes_unique_ok. Qed.
Print Assumptions C09_opcodes_unique.

Theorem C09_mnemonics_unique : mnemonics_unique instr_table = true.
Proof. exact mnemonics_unique_ok. Qed.
Print Assumptions C09_mnemonics_unique.

(* every table entry decodes to an instruction of that mnemonic, of size
   1 + sum of operand sizes, with the table's operand widths and signedness
   (tried on operand bytes that are all 255) *)
Theorem C09_decode_agrees_with_table : table_agrees instr_table = true.
Proof. exact decode_agrees_with_table_ok. Qed.
Print Assumptions C09_decode_agrees_with_table.

(* every other byte is rejected by the decoder *)
Theorem C09_unknown_opcodes_rejected : unknown_agrees instr_table = true.
Proof. exact unknown_opcodes_ok. Qed.
Print Assumptions C09_unknown_opcodes_rejected.

(* what the assembler packs, the machine's decoder reads back: every
   instruction, every operand value inside its field; floats on bit patterns.
   Guard: a push$ index above 32767 (written '>H', read '>h'): D30 *)
Theorem C09_decode_encode_wire_partial : forall w bs rest,
  encode_w w = Some bs -> pushstr_small w ->
  decode (bs ++ rest) = DOk (instr_of_w w) (len bs).
Proof. exact decode_encode_w. Qed.
Print Assumptions C09_decode_encode_wire_partial.

Theorem C09_decode_encode_instr_partial : forall i bs rest,
  encode_instr i = Some bs -> float_canon i ->
  match i with IPushStr idx => idx <= 32767 | _ => True end ->
  decode (bs ++ rest) = DOk i (len bs).
Proof.
  intros i bs rest H F G. rewrite <- (instr_of_w_of_instr i F).
  apply decode_encode_w; [exact H | destruct i; simpl; auto].
Qed.
Print Assumptions C09_decode_encode_instr_partial.

(* the unguarded statement is false of the faithful model *)
Theorem C09_decode_encode_instr_refuted :
  exists i bs, encode_instr i = Some bs /\
               decode bs = DOk (IPushStr (-32768)) 3 /\ i = IPushStr 32768.
Proof. exists (IPushStr 32768), [43; 128; 0]. repeat split. Qed.
Print Assumptions C09_decode_encode_instr_refuted.

(* a whole code section: the decoder recovers the instruction sequence with
   its offsets *)
Theorem C09_decode_encode_code_partial : forall ws bs,
  encode_code ws = Some bs -> Forall pushstr_small ws ->
  decode_code bs = COk (with_offsets 0 ws).
Proof. intros ws bs H F. exact (decode_code_from_ok ws 0 bs _ H F (le_n _)). Qed.
Print Assumptions C09_decode_encode_code_partial.

(* section level: QModule.parse (QvmCode.__bytes__ m) = m *)
Theorem C09_decode_encode_module : forall m,
  sizes_ok m -> exists bs, encode_module m = EOk bs /\ decode_module bs = POk m.
Proof.
  intros m S. destruct (sizes_ok_encodes m S) as (bs & E). exists bs. split; [assumption|].
  unfold decode_module. rewrite (decode_encode_module_gen _ _ E). reflexivity.
Qed.
Print Assumptions C09_decode_encode_module.

(* whenever the writer produces bytes at all, the reader recovers the module *)
Theorem C09_decode_of_any_encoding : forall m bs,
  encode_module m = EOk bs -> decode_module_dbg bs = POk (m, false).
Proof. exact decode_encode_module_gen. Qed.
Print Assumptions C09_decode_of_any_encoding.

(* D30 at section level: the item count of a DATA part is written signed
   ('>h') although the reader takes it unsigned ('>H'): 32768 items are
   representable in the format but refused by the writer *)
Theorem C09_wide_part_refuted :
  let m := mkBmod [] [repeat DEmpty (Z.to_nat 32768)] 0 [] in
  encode_module m = EStructError /\ len (hd [] (b_data m)) <= 65535.
Proof. exact wide_part_rejected. Qed.
Print Assumptions C09_wide_part_refuted.

(* the disassembly of the assembled items shows, instruction by instruction,
   the mnemonic of the listing and its operands after resolution (labels ->
   offsets computed from the generated table's sizes, variables -> indices,
   devices/operations -> ids, literals -> index + text, floats -> the value at
   operand width); [expected_dis] never encodes or decodes.  Guard: at most
   32768 literals, so that no push$ index is read back negative (D30); beyond
   it the statement is not proved (the disassembler itself reads '>H'). *)
Theorem C09_disasm_matches_listing_partial : forall lits l code labels,
  assemble lits l = AOk (code, labels) -> len lits <= 32768 ->
  exists dl, expected_dis lits l = Some dl /\ dis_items lits code = DisOk dl /\
             disasm lits code = DisOk (render_dis dl).
Proof. exact disasm_matches_listing. Qed.
Print Assumptions C09_disasm_matches_listing_partial.

(* one instruction: mnemonic and operands of the disassembly entry *)
Theorem C09_asm_one_spec : forall lits labels op args w off,
  asm_one lits (fun n => assoc n labels) op args = AOk w ->
  exists toks c, spec_args lits labels op args = Some (toks, c) /\
                 dis_entry lits off (instr_of_w w) = Some (mkDline off op toks c).
Proof.
  intros lits labels op args w off H. destruct (asm_one_inv _ _ _ _ _ H) as (toks & c & D & S).
  exists toks, c. split; [apply S; reflexivity | apply D].
Qed.
Print Assumptions C09_asm_one_spec.

Theorem C09_assembled_size_is_table_size : forall lits lab op args w bs,
  asm_one lits lab op args = AOk w -> encode_w w = Some bs -> table_size op = Some (len bs).
Proof. exact asm_one_size. Qed.
Print Assumptions C09_assembled_size_is_table_size.

(* targets, operands (the checker run on every module) *)
Theorem C09_targets_ok_sound : forall prog ng,
  targets_ok prog ng = true -> targets_spec prog ng.
Proof. exact targets_ok_sound. Qed.
Print Assumptions C09_targets_ok_sound.

(* non-vacuity *)
Example C09_example_module :
  let m := mkBmod [[104; 105]; []] [[DText [49]; DEmpty]; []] 3 [23; 0; 0; 0; 1; 100] in
  encode_module m =
    EOk [1; 0; 0; 0; 6; 0; 2; 104; 105; 0; 0;
         2; 0; 0; 0; 11; 0; 2; 0; 2; 0; 1; 49; 255; 255; 0; 0;
         3; 0; 0; 0; 4; 0; 0; 0; 3;
         4; 0; 0; 0; 6; 23; 0; 0; 0; 1; 100]
  /\ decode_code (b_code m) = COk [(0, IFrame 0 1); (5, IHalt)].
Proof. vm_compute. split; reflexivity. Qed.

(*   call _sub__main / halt / _sub__main: / frame 0, 1 / push$ "hi" / storel x$ / jmp _sub__main *)
Example C09_example_listing :
  let l := [AOp (L "call") [ASym (L "_sub__main")]; AOp (L "halt") []; ALabel (L "_sub__main");
            AOp (L "frame") [AInt 0; AInt 1]; AOp (L "push$") [ASym (quote (L "hi"))];
            AOp (L "storel") [AVar (L "x$") 0]; AOp (L "jmp") [ASym (L "_sub__main")]] in
  assemble [L "hi"] l =
    AOk ([5; 0; 0; 0; 6; 100; 23; 0; 0; 0; 1; 43; 0; 0; 95; 0; 0; 28; 0; 0; 0; 6],
         [(L "_sub__main", 6)])
  /\ expected_dis [L "hi"] l =
     Some [mkDline 0 (L "call") [THex 6] None; mkDline 5 (L "halt") [] None;
           mkDline 6 (L "frame") [TNum 0; TNum 1] None;
           mkDline 11 (L "push$") [TNum 0] (Some (L "hi"));
           mkDline 14 (L "storel") [TNum 0] None; mkDline 17 (L "jmp") [THex 6] None]
  /\ targets_ok [(0, ICall 6); (5, IHalt); (6, IFrame 0 1); (11, IPushStr 0); (14, IStore true 0);
                 (17, IJmp 6)] 0 = true
  /\ targets_ok [(0, ICall 7); (5, IHalt); (6, IFrame 0 1); (11, IStore true 1)] 0 = false.
Proof. vm_compute. repeat split; reflexivity. Qed.
