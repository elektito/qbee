(* C14 - spelling, spacing, comments and separators do not change the program.
   Only statements, each proved by [exact] or in a line or two from theorems
   of Proofs/, and Print Assumptions.  Model: Models/Lex.v (a lossless
   lexer for QBASIC text as qbee cuts it, and the canonical respelling [canon]).
   Proofs: Proofs/LexChars.v LexSpan.v LexTok.v LexLayout.v LexProofs.v
   LexIdem.v.

   What is proved: [canon] does not change under any rewriting of the catalogue
   (letter case of a keyword/identifier, blanks and tabs between tokens, comments
   and empty lines, the spelling of a two-character comparison operator) nor
   under any finite composition of such rewritings, in either direction.  The
   correspondence (tools/props/c14.py) then checks ONE fact on the real compiler:
   [compile t] and [compile (canon t)] have identical sections.  Together: all
   texts connected by catalogue rewritings compile to the sections of their
   common canonical text.

   Not proved here (checked on the real compiler only, by the harness): joining
   and splitting statements at colons, LET, CALL f(a) versus f a, NEXT v versus
   NEXT, renaming labels / renumbering line numbers, letter case inside numeric
   literals (1E5, &HFF).  That the pyparsing grammar factors through these
   tokens is not a theorem either; it is what the correspondence tests. *)
From Coq Require Import ZArith List Bool.
From QV Require Import Sx Strs Lex LexLayout LexProofs LexIdem.
Import ListNotations.
Open Scope Z_scope.

(* the lexer loses nothing: the text is the concatenation of its layout *)
Theorem C14_lex_lossless : forall s,
  unlex (fst (lex_layout s)) (snd (lex_layout s)) = s.
Proof.
  intro s. destruct (lex_layout s) as [l tail] eqn:E. exact (proj1 (lex_lay_ok s l tail E)).
Qed.
Print Assumptions C14_lex_lossless.

(* what the lexer returns satisfies the token-by-token description [lay_ok] *)
Theorem C14_lex_image : forall s l tail,
  lex_layout s = (l, tail) ->
  unlex l tail = s /\ lay_ok l (hd_error tail) = true /\ forallb is_blank tail = true.
Proof. exact lex_lay_ok. Qed.
Print Assumptions C14_lex_image.

(* and conversely every layout satisfying it is the lexing of its own text:
   texts and valid layouts are in bijection *)
Theorem C14_lex_relex : forall l tail,
  lay_ok l (hd_error tail) = true -> forallb is_blank tail = true ->
  lex_layout (unlex l tail) = (l, tail).
Proof. exact relex. Qed.
Print Assumptions C14_lex_relex.

(* letter case of any keyword / identifier / DATA / REM word *)
Theorem C14_canon_invariant_case : forall s s', r_case s s' -> canon s' = canon s.
Proof. exact r_case_canon. Qed.
Print Assumptions C14_canon_invariant_case.

(* blanks and tabs in front of any token or at the end of the text, added,
   removed or exchanged, as long as the token before still ends there *)
Theorem C14_canon_invariant_blank : forall s s', r_blank s s' -> canon s' = canon s.
Proof. exact r_blank_canon. Qed.
Print Assumptions C14_canon_invariant_blank.

(* comment text, a comment at the end of a line, empty and comment-only lines *)
Theorem C14_canon_invariant_comment : forall s s', r_comment s s' -> canon s' = canon s.
Proof. exact r_comment_canon. Qed.
Print Assumptions C14_canon_invariant_comment.

(* <> / ><, <= / =<, >= / => *)
Theorem C14_canon_invariant_relop : forall s s', r_relop s s' -> canon s' = canon s.
Proof. exact r_relop_canon. Qed.
Print Assumptions C14_canon_invariant_relop.

(* every finite composition, each step taken forwards or backwards *)
Theorem C14_canon_invariant_star : forall s s', rewrites s s' -> canon s' = canon s.
Proof. exact canon_invariant_star. Qed.
Print Assumptions C14_canon_invariant_star.

(* the canonical text is a fixed point: canon is a projection onto one
   representative of every class of respellings *)
Theorem C14_canon_idempotent : forall s, canon (canon s) = canon s.
Proof.
  intro s. unfold canon at 2 3. rewrite (canon_render _ (normalise_line_ok s)).
  unfold normalise. now rewrite filter_idem.
Qed.
Print Assumptions C14_canon_idempotent.

(* non-vacuity on a small program:   IF a><1 THEN x=2 'c *)

Definition P1 : str :=
  [73;70;32;97;62;60;49;32;84;72;69;78;32;120;61;50;32;39;99;10].
(* if a><1 THEN x=2 'c *)
Definition P2 : str :=
  [105;102;32;97;62;60;49;32;84;72;69;78;32;120;61;50;32;39;99;10].
(* if a<>1 THEN x=2 'c *)
Definition P3 : str :=
  [105;102;32;97;60;62;49;32;84;72;69;78;32;120;61;50;32;39;99;10].
(* if a<>1 THEN   x=2 'c   (two more blanks) *)
Definition P4 : str :=
  [105;102;32;97;60;62;49;32;84;72;69;78;32;32;32;120;61;50;32;39;99;10].
(* if a<>1 THEN   x=2      (comment removed: P4 is P5 with the comment added) *)
Definition P5 : str :=
  [105;102;32;97;60;62;49;32;84;72;69;78;32;32;32;120;61;50;10].

Definition rest_a : list ltok :=
  [([32], TWord [84;72;69;78] []); ([32], TWord [120] []); ([], TOp [61]);
   ([], TNum [50] [] []); ([32], TApos [99]); ([], TNewline)].

Example C14_ex_lex :
  lex_layout P1 =
  (([], TWord [73;70] []) :: ([32], TWord [97] []) :: ([], TOp [62;60])
   :: ([], TNum [49] [] []) :: rest_a, []).
Proof. vm_compute. reflexivity. Qed.

(* the canonical text:  if a <> 1 then x = 2  *)
Example C14_ex_canon :
  canon P1 = [105;102;32;97;32;60;62;32;49;32;116;104;101;110;32;120;32;61;32;50;10].
Proof. vm_compute. reflexivity. Qed.

Example C14_ex_case : r_case P1 P2.
Proof.
  apply (rc_word P1 [] [] [73;70] []
           (([32], TWord [97] []) :: ([], TOp [62;60]) :: ([], TNum [49] [] []) :: rest_a)
           [] [105;102]); reflexivity.
Qed.

Example C14_ex_relop : r_relop P2 P3.
Proof.
  apply (rr_swap P2 [([], TWord [105;102] []); ([32], TWord [97] [])] [] [62;60]
           (([], TNum [49] [] []) :: rest_a) [] [60;62]); reflexivity.
Qed.

Example C14_ex_blank : r_blank P3 P4.
Proof.
  apply (rb_mid P3 [([], TWord [105;102] []); ([32], TWord [97] []); ([], TOp [60;62]);
                    ([], TNum [49] [] []); ([32], TWord [84;72;69;78] [])]
           [32] (TWord [120] [])
           [([], TOp [61]); ([], TNum [50] [] []); ([32], TApos [99]); ([], TNewline)]
           [] [32;32;32]); reflexivity.
Qed.

Example C14_ex_comment : r_comment P5 P4.
Proof.
  apply (rm_add_eol P5 [([], TWord [105;102] []); ([32], TWord [97] []); ([], TOp [60;62]);
                        ([], TNum [49] [] []); ([32], TWord [84;72;69;78] []);
                        ([32;32;32], TWord [120] []); ([], TOp [61]); ([], TNum [50] [] [])]
           [] [] [] [32] [99]); reflexivity.
Qed.

(* a composition of four rewritings (the last one taken backwards) *)
Example C14_ex_star : rewrites P1 P5.
Proof.
  apply (rws_step P1 P2 P5 (rw_case _ _ C14_ex_case)).
  apply (rws_step P2 P3 P5 (rw_relop _ _ C14_ex_relop)).
  apply (rws_step P3 P4 P5 (rw_blank _ _ C14_ex_blank)).
  apply (rws_back P4 P5 P5 (rw_comment _ _ C14_ex_comment)).
  apply rws_refl.
Qed.

Example C14_ex_star_canon : canon P5 = canon P1.
Proof. exact (C14_canon_invariant_star P1 P5 C14_ex_star). Qed.

(* the side condition of r_blank is not idle: removing the blank between
   THEN and x merges two words, and the canonical text changes *)
Example C14_ex_blank_guard :
  canon [116;104;101;110;120] <> canon [116;104;101;110;32;120].
Proof. vm_compute. discriminate. Qed.
