(* C06 - the compiler is total: any text yields a module or a diagnostic.

   What is decided here by theorems is ONLY the part of the pipeline that is
   a pure list / offset computation and is modelled in Models/Tokens.v:
     - the two grammar parse actions that assume an arity
       (parse_left_assoc_binary_expr, parse_right_assoc_binary_expr),
     - the offset -> (line, column) arithmetic a diagnostic needs
       (convert_index_to_line_col, display_with_context).
   The pyparsing stage on arbitrary strings, the compile passes, the folder,
   the code generator and the assembler are NOT modelled for this property:
   there the check is a search with the oracle "only SyntaxError /
   CompileError with a position inside the text may escape"
   (tools/props/c06.py).
   Statements, each proved by [exact] or in a few lines from a theorem of
   Proofs/TokensProofs.v; Print Assumptions. *)
From Coq Require Import ZArith List Bool Lia.
From QV Require Import Sx Tokens TokensProofs.
Import ListNotations.
Open Scope Z_scope.

(* The left-associative action never crashes on a well-shaped list
   (operand (operator operand)*, every operator string a binary operator) and
   returns the left-nested tree ((a o1 b) o2 c) ...: by induction on the list *)
Theorem C06_left_assoc_total : forall toks,
  well_shaped is_binop_str toks = true ->
  exists a pairs, toks = encode a pairs /\ parse_left toks = RTree (left_nest a pairs).
Proof.
  intros toks H. destruct (well_shaped_decode _ _ H) as (a & pairs & -> & F).
  exists a, pairs. split; [reflexivity | apply left_assoc_total, F].
Qed.
Print Assumptions C06_left_assoc_total.

(* the well-shaped lists are EXACTLY the domain of the action: on every other
   list it ends in one of the modelled host exceptions *)
Theorem C06_left_assoc_tree_iff_shape : forall toks,
  (exists t, parse_left toks = RTree t) <-> well_shaped is_binop_str toks = true.
Proof. exact left_assoc_tree_iff_shape. Qed.
Print Assumptions C06_left_assoc_tree_iff_shape.

(* ... and the in-order traversal of the result is the input sequence *)
Theorem C06_left_assoc_inorder : forall a pairs,
  forallb (fun p => is_binop_str (fst p)) pairs = true ->
  exists t, parse_left (encode (Leaf a) (leaves pairs)) = RTree t /\
            inorder t = items a pairs.
Proof.
  intros a pairs H. exists (left_nest (Leaf a) (leaves pairs)).
  split; [apply left_assoc_total; now rewrite leaves_ops | apply inorder_left_nest].
Qed.
Print Assumptions C06_left_assoc_inorder.

(* The right-associative action on operand ("^" operand)* returns
   a ^ (b ^ (c ...)) *)
Theorem C06_right_assoc_total : forall toks,
  well_shaped is_caret_str toks = true ->
  exists a pairs, toks = encode a pairs /\ parse_right toks = RTree (right_nest a pairs).
Proof.
  intros toks H. destruct (well_shaped_decode _ _ H) as (a & pairs & -> & F).
  exists a, pairs. split; [reflexivity | apply right_assoc_total, F].
Qed.
Print Assumptions C06_right_assoc_total.

(* On the shapes exponent_expr REALLY produces (sign^k operand ["^" node],
   the atom rule leaves its sign tokens in the list) the action returns a tree
   iff there is no sign; with any sign it fails an assert.  So the full
   statement "the action is total on what the grammar hands it" is false: *)
Theorem C06_right_assoc_real_shapes_partial : forall toks k,
  exponent_shape toks = Some k ->
  (k = O -> exists t, parse_right toks = RTree t) /\
  (k <> O -> parse_right toks = RCrash CAssert).
Proof. exact exponent_shape_outcome. Qed.
Print Assumptions C06_right_assoc_real_shapes_partial.

(* D05 witness: `2 ^ -1` - the nested exponent_expr receives ["-"; 1] *)
Theorem C06_right_assoc_unary_minus_refuted :
  exists toks, exponent_shape toks = Some 1%nat /\ parse_right toks = RCrash CAssert.
Proof. exists [TStr 2; TNode (Leaf 1)]. split; reflexivity. Qed.
Print Assumptions C06_right_assoc_unary_minus_refuted.

(* Every offset inside the text has a line and a column (debug map, -g) ... *)
Theorem C06_line_col_domain : forall s off,
  (0 <= off < Z.of_nat (length s) ->
     exists l c, line_col s off = Some (l, c) /\ 1 <= l <= 1 + count_nl s /\ 0 <= c) /\
  (off < 0 \/ Z.of_nat (length s) <= off -> line_col s off = None).
Proof.
  intros s off. unfold line_col. pose proof (line_col_go_spec s 0 1 0 off) as G.
  destruct (line_col_go s 0 1 0 off) as [[l c]|]; split; intro H; [| lia | lia | reflexivity].
  exists l, c. split; [reflexivity | lia].
Qed.
Print Assumptions C06_line_col_domain.

(* ... and a diagnostic whose position is inside the text can be displayed:
   display_with_context finds a target line within the text and a caret
   column; a position before or after the text has no target line (the host
   TypeError in main.py) *)
Theorem C06_display_position_total : forall s loc,
  (0 <= loc < Z.of_nat (length s) ->
     exists l c, display_target s loc = Some (l, c) /\
                 1 <= l <= 1 + count_nl s /\ 1 <= c <= loc + 1) /\
  (loc < 0 \/ Z.of_nat (length s) < loc -> display_target s loc = None).
Proof.
  intros s loc. unfold display_target. pose proof (target_go_spec s 0 0 1 loc) as G.
  destruct (target_go s 0 0 1 loc) as [[l c]|]; split; intro H; [| lia | lia | reflexivity].
  exists l, c. split; [reflexivity | lia].
Qed.
Print Assumptions C06_display_position_total.

(* the end-of-text offset is NOT displayable when the text ends in a newline
   (or is empty): "inside the text" must be read as loc < len *)
Theorem C06_display_at_end_newline_refuted : forall s,
  display_target (s ++ [ch_nl]) (Z.of_nat (length (s ++ [ch_nl]))) = None.
Proof.
  intro s. apply target_go_after_nl. rewrite app_length. cbn [length]. lia.
Qed.
Print Assumptions C06_display_at_end_newline_refuted.

(* non-vacuity: 1 + 2 * 3 - 4 arrives at addsub_expr as [1; "+"; (2*3); "-"; 4] *)
Example C06_example_left :
  parse_left [TNode (Leaf 1); TStr 1; TNode (Bin 3 (Leaf 2) (Leaf 3)); TStr 2; TNode (Leaf 4)]
  = RTree (Bin 2 (Bin 1 (Leaf 1) (Bin 3 (Leaf 2) (Leaf 3))) (Leaf 4)).
Proof. vm_compute. reflexivity. Qed.

Example C06_example_right :
  parse_right [TNode (Leaf 2); TStr 0; TNode (Bin 0 (Leaf 3) (Leaf 4))]
  = RTree (Bin 0 (Leaf 2) (Bin 0 (Leaf 3) (Leaf 4))).
Proof. vm_compute. reflexivity. Qed.

(* "ab\ncd", offset 4 ('d'): line 2; the caret column is 2 *)
Example C06_example_display :
  display_target [97; 98; 10; 99; 100] 4 = Some (2, 2) /\
  line_col [97; 98; 10; 99; 100] 4 = Some (2, 2).
Proof. vm_compute. split; reflexivity. Qed.
