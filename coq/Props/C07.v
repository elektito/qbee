(* C07 - the virtual machine is total: every run ends in a halt or a trap.
   The statements, each proved by a lemma of Proofs/MachineProofs.v (for the
   typed stack instructions, of Proofs/VerifierProofs.v) or in a line or two by
   running the model.  The model (Models/Machine.v, Models/Cpu.v) makes
   every host exception of the Python an explicit [Crash] outcome; the
   correspondence check ties it to qvm/cpu.py. *)
From Coq Require Import ZArith List Bool.
From QV Require Import Sx Strs Fl Cell Machine Cpu Verifier MachineProofs ErrProofs VerifierProofs.
Import ListNotations.
Open Scope Z_scope.

(* An interrupt request arriving between any two instructions, with no handler
   armed (or while a handler is already running), stops the run with the
   keyboard-interrupt error before any further instruction executes: for EVERY
   module and EVERY state, hence at every instruction boundary of every run. *)
Theorem C07_interrupt_stops : forall m s,
  irq s = true -> (ttarget_ s = TNone \/ handler_active s = true) ->
  tick m s = Next (interrupted s).
Proof. exact interrupt_stops. Qed.
Print Assumptions C07_interrupt_stops.

Theorem C07_interrupted_state : forall s,
  pc (interrupted s) = pc s /\ stack (interrupted s) = stack s /\ heap (interrupted s) = heap s /\
  cur (interrupted s) = cur s /\ events (interrupted s) = events s /\
  data_part (interrupted s) = data_part s /\ data_idx (interrupted s) = data_idx s /\
  scr (interrupted s) = scr s /\
  halted (interrupted s) = true /\ reason (interrupted s) = H_TRAP /\
  last_trap (interrupted s) = Some T_KEYBOARD_INTERRUPT.
Proof. destruct s; cbn; repeat split; reflexivity. Qed.
Print Assumptions C07_interrupted_state.

(* why the property excludes armed handlers: the interrupt is dispatched like an error *)
Theorem C07_interrupt_goes_to_handler : forall m s a,
  irq s = true -> ttarget_ s = TAddr a -> handler_active s = false ->
  tick m s = Next (set_handler_active
                     (set_pc (set_last_trap (set_irq s false) (Some T_KEYBOARD_INTERRUPT) true) a) true).
Proof.
  intros m s a Hi Ht Ha. unfold tick. rewrite Hi. unfold do_trap.
  destruct s; cbn in *. subst. reflexivity.
Qed.
Print Assumptions C07_interrupt_goes_to_handler.

(* a trap with no handler armed halts the machine with that code *)
Theorem C07_trap_halts : forall m c s,
  ttarget_ s = TNone ->
  do_trap m c true s = Next (set_halt (set_last_trap s (Some c) true) true H_TRAP).
Proof.
  intros m c s H. unfold do_trap. destruct s; cbn in *. subst.
  destruct handler_active; reflexivity.
Qed.
Print Assumptions C07_trap_halts.

(* the reported category matches the cause *)
Theorem C07_cause_division_by_zero : forall m s x r,
  (stack s = CI 0 :: CI x :: r -> exec m IIdiv s = ZD (set_stack s r)) /\
  (stack s = CI 0 :: CI x :: r -> exec m IMod s = ZD (set_stack s r)) /\
  (stack s = CL 0 :: CL x :: r -> exec m IIdiv s = ZD (set_stack s r)) /\
  (stack s = CI 0 :: CI x :: r -> exec m IDiv s = ZD (set_stack s r)).
Proof. intros; repeat split; intro H; unfold exec, bind, pop; rewrite H; reflexivity. Qed.
Print Assumptions C07_cause_division_by_zero.

Theorem C07_cause_overflow : forall m s x y r,
  (stack s = CI y :: CI x :: r -> in_int (x + y) = false ->
   exec m IAdd s = T T_INVALID_CELL_VALUE true (set_stack s r)) /\
  (stack s = CL y :: CL x :: r -> in_long (x * y) = false ->
   exec m IMul s = T T_INVALID_CELL_VALUE true (set_stack s r)).
Proof. intros; split; [apply add_int_overflow | apply mul_long_overflow]. Qed.
Print Assumptions C07_cause_overflow.

Theorem C07_cause_illegal_argument : forall m s r,
  (forall c, stack s = CI c :: r -> (c < 0 \/ c > 255) ->
             exec m IChr s = T T_INVALID_OPERAND_VALUE true (set_stack s r)) /\
  (stack s = CStr [] :: r -> exec m IAsc s = T T_INVALID_OPERAND_VALUE true (set_stack s r)) /\
  (forall n, stack s = CI n :: r -> n < 0 ->
             exec m ISpace s = T T_INVALID_OPERAND_VALUE true (set_stack s r)).
Proof. intros; repeat split; intros; [eapply chr_illegal | eapply asc_empty | eapply space_negative]; eauto. Qed.
Print Assumptions C07_cause_illegal_argument.

Theorem C07_cause_out_of_data : forall m s ty r,
  stack s = CI ty :: r -> nthZ (m_data m) (data_part s) = None ->
  dev_read m s = T T_DEVICE_ERROR true (set_stack s r).
Proof.
  intros m s ty r H Hd. unfold dev_read, pop_int, pop_ty, bind, pop, get. rewrite H. cbn.
  destruct s; cbn in *. rewrite Hd. reflexivity.
Qed.
Print Assumptions C07_cause_out_of_data.

(* tick is total; a host exception is exactly the Crash shape.  The statement
   that Crash is unreachable from compiler-produced modules is FALSE on the
   unchanged tree (KNOWN_FINDINGS: exp overflow/complex, conversion of inf,
   ERR before any error, PRINT USING, STRING$ code > 255, RESUME NEXT lookup):
   a witness below. *)
Theorem C07_tick_shape : forall m s,
  (exists s', tick m s = Next s') \/ (exists k s', tick m s = Crash k s') \/
  (exists s', tick m s = NeedInput s').
Proof. intros m s. destruct (tick m s); eauto. Qed.
Print Assumptions C07_tick_shape.

(* the positive part: a stack instruction (arithmetic, logic, comparison,
   conversion, constants, string functions, stack shuffles, jz/jmp) decoded at pc
   whose operands have the types its rule demands never makes tick raise a host
   exception - for every module and state (after the fix commits for D17, D18,
   D37 the guard on values is empty).  The side conditions only exclude the
   RESUME-NEXT mode, whose statement lookup is covered by C10. *)
Theorem C07_typed_stack_instr_total : forall m s i size t',
  in_code m s ->
  decode (skipn (Z.to_nat (pc s)) (m_code m)) = DOk i size ->
  eff i (tys (stack s)) = Some t' ->
  (forall s3 c kw, exec m i (pre_exec s size) = T c kw s3 -> ttarget_ s3 <> TNext) ->
  (forall s3, exec m i (pre_exec s size) = ZD s3 -> ttarget_ s3 <> TNext) ->
  exists s', tick m s = Next s'.
Proof. exact tick_total_on_typed_stack_instr. Qed.
Print Assumptions C07_typed_stack_instr_total.

(* refutation witness for the unguarded statement: PRINT USING "!"; "" (a
   compiler-produced instruction sequence) raises IndexError (known finding D16) *)
Theorem C07_tick_total_refuted :
  exists m n, let '(_, k, _) := run m n (init_state m (mkScript [] [] [] [])) 0 in
              k = StCrash CrIndex.
Proof.
  exists (mkModule [39; 0; 3; 43; 0; 0; 52; 43; 0; 1; 39; 0; 4; 27; 2; 2; 100] [[33]; []] [] 0 None), 10%nat.
  vm_compute. reflexivity.
Qed.
Print Assumptions C07_tick_total_refuted.

(* non-vacuity of the interrupt theorem on a concrete reachable state *)
Example C07_interrupt_example :
  let m := mkModule [52; 100] [] [] 0 None in
  let s := set_irq (init_state m (mkScript [] [] [] [])) true in
  tick m s = Next (interrupted s) /\ stack (interrupted s) = [].
Proof. vm_compute. split; reflexivity. Qed.
