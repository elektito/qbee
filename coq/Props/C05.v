(* C05 - static errors are rejected at compile time with a located diagnostic.
   Statements, each proved by [exact] or by a derivation of a line or two from
   a theorem of Proofs/; Print Assumptions.
   Models: Models/Blocks.v (block assembler + Pass1 block checks + stray markers),
           Gen/TypeTable.v (operator typing decision of the code, regenerated).
   Specs:  Models/BlocksSpec.v (block grammar), Models/TypeRules.v (typing rule).
   Proofs: Proofs/BlocksProofs.v BlocksErrors.v BlocksStrict.v TypeTableProofs.v *)
From Coq Require Import ZArith List Bool.
From QV Require Import Blocks BlocksSpec BlocksProofs BlocksErrors BlocksStrict.
From QV Require Import TypeTable TypeRules TypeTableProofs.
Import ListNotations.
Open Scope Z_scope.

(* it returns a tree only for a stream generated by the block grammar, and the
   tree is a parse of exactly that stream (nothing dropped, nothing invented) *)
Theorem C05_assemble_sound : forall l ts,
  assemble l = ROk ts -> Forall wfa ts /\ flatten_forest ts = l.
Proof. exact assemble_sound_asm. Qed.
Print Assumptions C05_assemble_sound.

(* every stream of the grammar is accepted, with its own parse tree *)
Theorem C05_assemble_complete : forall ts,
  Forall wfa ts -> assemble (flatten_forest ts) = ROk ts.
Proof. exact assemble_complete_asm. Qed.
Print Assumptions C05_assemble_complete.

Theorem C05_assemble_iff_balanced : forall l,
  (exists ts, assemble l = ROk ts) <-> balanced_asm l.
Proof.
  intros l. split; intros [ts H]; exists ts.
  - apply assemble_sound_asm. assumption.
  - destruct H as [Hw <-]. apply assemble_complete_asm. assumption.
Qed.
Print Assumptions C05_assemble_iff_balanced.

Theorem C05_parse_unique : forall ts1 ts2,
  Forall wfa ts1 -> Forall wfa ts2 -> flatten_forest ts1 = flatten_forest ts2 -> ts1 = ts2.
Proof.
  intros ts1 ts2 H1 H2 E. apply assemble_complete_asm in H1, H2.
  rewrite E in H1. congruence.
Qed.
Print Assumptions C05_parse_unique.

(* every diagnostic of the assembler is on the line of a statement of the program *)
Theorem C05_assemble_error_located : forall l e ln,
  assemble l = RErr e ln -> exists y, In y l /\ sl y = ln.
Proof. exact assemble_error_in_stream. Qed.
Print Assumptions C05_assemble_error_located.

(* terminator without opener: reported exactly when x is a terminator and all the
   text before it is balanced; the line is x's *)
Theorem C05_unopened_terminator_iff : forall l ke ln,
  assemble l = RErr (EEndWithoutStart ke) ln <->
  exists p x r, l = p ++ x :: r /\ sl x = ln /\ ender (sk x) = Some ke /\ balanced_asm p.
Proof. exact unopened_iff. Qed.
Print Assumptions C05_unopened_terminator_iff.

(* wrong terminator: the innermost block open at x is o (the text between is
   balanced) and x terminates another kind; the line is x's *)
Theorem C05_wrong_terminator_located : forall l ko ln,
  assemble l = RErr (EExpectedEnd ko) ln ->
  exists p1 o p2 x r ke,
    l = p1 ++ o :: p2 ++ x :: r /\ sl x = ln /\ opener (sk o) = Some ko /\
    balanced_asm p2 /\ ender (sk x) = Some ke /\ ke <> ko.
Proof.
  intros l ko ln H. apply assemble_rejects in H. inversion H; subst; try discriminate.
  eauto 13.
Qed.
Print Assumptions C05_wrong_terminator_located.

(* fault lemma: a terminator of another kind put inside block o of a valid program
   is rejected at its own line, whatever follows *)
Theorem C05_wrong_terminator_rejected : forall p1 o p2 q x ko ke,
  balanced_asm (p1 ++ o :: p2 ++ q) -> opener (sk o) = Some ko -> balanced_asm p2 ->
  ender (sk x) = Some ke -> ke <> ko ->
  forall r, assemble (p1 ++ o :: p2 ++ x :: r) = RErr (EExpectedEnd ko) (sl x).
Proof.
  intros p1 o p2 q x ko ke Hb Ho Hb2 He Hne r. apply (fails_in_block _ _ _ _ _ _ _ _ _ Hb Ho Hb2).
  intros st c b. unfold step. rewrite (ender_not_opener _ _ He), He.
  destruct (bkind_eqb_spec ko ke); [congruence | reflexivity].
Qed.
Print Assumptions C05_wrong_terminator_rejected.

(* unclosed block: o is the innermost opener still open at the end of the text;
   the line is the opener's *)
Theorem C05_unclosed_located : forall l k ln,
  assemble l = RErr (ENotClosed k) ln ->
  exists p1 o p2, l = p1 ++ o :: p2 /\ sl o = ln /\ opener (sk o) = Some k /\ balanced_asm p2.
Proof.
  intros l k ln H. apply assemble_rejects in H. inversion H; subst; try discriminate.
  eauto 13.
Qed.
Print Assumptions C05_unclosed_located.

Theorem C05_unclosed_rejected : forall p1 o p2 q k,
  balanced_asm (p1 ++ q) -> opener (sk o) = Some k -> balanced_asm p2 ->
  assemble (p1 ++ o :: p2) = RErr (ENotClosed k) (sl o).
Proof.
  intros p1 o p2 q k Hb Ho Hb2. destruct (inside_block _ _ _ _ _ Hb Ho Hb2) as (st & c & b & Hp).
  unfold assemble. rewrite run_all, Hp. reflexivity.
Qed.
Print Assumptions C05_unclosed_rejected.

(* NEXT with the wrong variable: BLOCK_MISMATCH on the line of that NEXT *)
Theorem C05_next_mismatch_located : forall l ln,
  assemble l = RErr ENextVar ln ->
  exists p1 o p2 x r v w,
    l = p1 ++ o :: p2 ++ x :: r /\ sl x = ln /\ sk o = SFor v /\ sk x = SNext (Some w) /\
    v <> w /\ balanced_asm p2.
Proof.
  intros l ln H. apply assemble_rejects in H. inversion H; subst; try discriminate.
  eauto 13.
Qed.
Print Assumptions C05_next_mismatch_located.

Theorem C05_next_mismatch_rejected : forall p1 o p2 q x v w,
  balanced_asm (p1 ++ q) -> sk o = SFor v -> balanced_asm p2 -> sk x = SNext (Some w) -> v <> w ->
  forall r, assemble (p1 ++ o :: p2 ++ x :: r) = RErr ENextVar (sl x).
Proof.
  intros p1 o p2 q x v w Hb Ho Hb2 Hx Hvw r.
  apply (fails_in_block _ _ _ BFor _ _ _ _ _ Hb); [rewrite Ho; reflexivity | assumption |].
  intros st c b. unfold step. rewrite Hx. simpl. rewrite Ho, Hx.
  destruct (Z.eqb_spec v w); [contradiction | reflexivity].
Qed.
Print Assumptions C05_next_mismatch_rejected.

(* an error other than "not closed" is decided by the prefix ending at the
   offending terminator: nothing that follows can repair or change it *)
Theorem C05_error_prefix_determined : forall l e ln,
  assemble l = RErr e ln -> (forall k, e <> ENotClosed k) ->
  exists p x r, l = p ++ x :: r /\ ender (sk x) <> None /\
                forall r', assemble (p ++ x :: r') = RErr e ln.
Proof. exact error_prefix_determined. Qed.
Print Assumptions C05_error_prefix_determined.

(* The whole front against the strict grammar [balanced].
   Full statement demanded by the property for block structure:
     forall l, (balanced l /\ exists ts, front l = ROk ts) \/
               (~ balanced l /\ exists e ln, front l = RErr e ln /\ exists y, In y l /\ sl y = ln).
   It is FALSE of the faithful model on the unchanged tree (witnesses below):
   proved under the guard  no_case_else l /\ no_crash l.
   Missing for the full statement: (1) CaseElseStmt has a code generator that
   needs no SELECT and no pass checks its position; (2) SelectBlock.create_block
   demands a CaseStmt first; (3) IfBlock.create_block / the code generator raise
   host exceptions for a second ELSE, ELSEIF after ELSE, a marker that no block
   consumed. *)
Theorem C05_blocks_verdict_partial : forall l,
  no_case_else l -> no_crash l ->
  (balanced l /\ exists ts, front l = ROk ts) \/
  (~ balanced l /\ exists e ln, front l = RErr e ln /\ exists y, In y l /\ sl y = ln).
Proof. exact blocks_verdict_partial. Qed.
Print Assumptions C05_blocks_verdict_partial.

Theorem C05_blocks_sound_partial : forall l ts,
  no_case_else l -> front l = ROk ts -> Forall (wfs false) ts /\ flatten_forest ts = l.
Proof. intros l ts Hn. apply (front_accepts l ts Hn). Qed.
Print Assumptions C05_blocks_sound_partial.

(* a valid program is never rejected for its block structure *)
Theorem C05_blocks_complete_partial : forall ts,
  Forall (wfs false) ts -> no_case_else (flatten_forest ts) ->
  front (flatten_forest ts) = ROk ts.
Proof. intros ts Hw Hn. apply front_accepts; auto. Qed.
Print Assumptions C05_blocks_complete_partial.

Theorem C05_front_error_located : forall l e ln,
  front l = RErr e ln -> exists y, In y l /\ sl y = ln.
Proof. exact front_error_in_stream. Qed.
Print Assumptions C05_front_error_located.

Theorem C05_blocks_accepts_stray_case_else_refuted :
  exists l ts, front l = ROk ts /\ ~ balanced l.
Proof. exact case_else_accepted_refuted. Qed.
Print Assumptions C05_blocks_accepts_stray_case_else_refuted.

Theorem C05_blocks_rejects_case_else_first_refuted :
  exists l e ln, balanced l /\ front l = RErr e ln.
Proof. exact case_else_first_rejected_refuted. Qed.
Print Assumptions C05_blocks_rejects_case_else_first_refuted.

Theorem C05_blocks_second_else_crash_refuted :
  front [mkS SIfOpen 1; mkS SElse 2; mkS SElse 3; mkS SEndIf 4] = RCrash CAssertIf.
Proof. reflexivity. Qed.
Print Assumptions C05_blocks_second_else_crash_refuted.

Theorem C05_blocks_stray_case_crash_refuted : front [mkS SCase 1] = RCrash CCodegen.
Proof. reflexivity. Qed.
Print Assumptions C05_blocks_stray_case_crash_refuted.

Theorem C05_blocks_else_in_nested_block_crash_refuted :
  front [mkS SIfOpen 1; mkS SWhile 2; mkS SElse 3; mkS SWend 4; mkS SEndIf 5] = RCrash CCodegen.
Proof. reflexivity. Qed.
Print Assumptions C05_blocks_else_in_nested_block_crash_refuted.

(* accepted / rejected, and string / number, as the rule says - every binary
   operator x every pair of the seven type kinds *)
Theorem C05_type_table_ok : forall op a b ty raised,
  In (op, a, b, ty, raised) binop_table ->
  verdict_kind (effective ty raised) = verdict_kind (rule_bin op a b).
Proof. exact type_table_ok. Qed.
Print Assumptions C05_type_table_ok.

(* the exact result type.  Full statement: effective ty raised = rule_bin op a b
   for every entry.  On the tree this was built against it is false for integer
   division with a floating operand (the code widens like addition: known
   finding D32b-intdiv-float-type, reported entry-wise by the check from the
   regenerated table); the guard keeps the obligation true both before and after
   that defect is repaired, so no _refuted lemma is stated about the generated
   table (it would stop compiling when the code is fixed).  Verdicts (accepted /
   rejected) are not affected. *)
Theorem C05_type_table_exact_partial : forall op a b ty raised,
  In (op, a, b, ty, raised) binop_table ->
  intdiv_float (op, a, b, ty, raised) = false ->
  effective ty raised = rule_bin op a b.
Proof.
  intros op a b ty raised H G. pose proof bin_exact_sweep as S. rewrite forallb_forall in S.
  specialize (S _ H). rewrite G in S. apply opt_eqb_eq, S.
Qed.
Print Assumptions C05_type_table_exact_partial.

Theorem C05_unop_table_ok : forall op a ty raised,
  In (op, a, ty, raised) unop_table -> effective ty raised = rule_un op a.
Proof.
  intros op a ty raised H. apply opt_eqb_eq. exact (proj1 (forallb_forall _ _) un_sweep _ H).
Qed.
Print Assumptions C05_unop_table_ok.

Theorem C05_coercible_ok : forall a b v,
  In (a, b, v) coerce_table -> (v = 1 <-> rule_coerce a b = true) /\ (v = 0 \/ v = 1).
Proof. exact coercible_ok. Qed.
Print Assumptions C05_coercible_ok.

Theorem C05_type_table_total : forall op a b,
  In op bin_ops -> In a kinds -> In b kinds ->
  exists ty raised, In (op, a, b, ty, raised) binop_table.
Proof. exact bin_table_total. Qed.
Print Assumptions C05_type_table_total.

Theorem C05_coerce_table_total : forall a b,
  In a kinds -> In b kinds -> exists v, In (a, b, v) coerce_table.
Proof. exact coerce_table_total. Qed.
Print Assumptions C05_coerce_table_total.

(* fault lemmas of the typing faults *)
Theorem C05_string_number_rejected : forall op a b ty raised,
  In (op, a, b, ty, raised) binop_table ->
  (numeric a = true /\ is_string b = true) \/ (is_string a = true /\ numeric b = true) ->
  effective ty raised = None.
Proof.
  intros op a b ty raised H M. exact (rule_none_rejected _ _ _ _ _ H (rule_bin_mixed _ _ _ M)).
Qed.
Print Assumptions C05_string_number_rejected.

Theorem C05_record_operand_rejected : forall op a b ty raised,
  In (op, a, b, ty, raised) binop_table -> 6 <= a \/ 6 <= b -> effective ty raised = None.
Proof.
  intros op a b ty raised H M. exact (rule_none_rejected _ _ _ _ _ H (rule_bin_record _ _ _ M)).
Qed.
Print Assumptions C05_record_operand_rejected.

(* FOR i / IF / ELSE / END IF / NEXT i  is assembled into the expected tree *)
Example C05_example_tree :
  front [mkS (SFor 0) 1; mkS SIfOpen 2; mkS SSimple 3; mkS SElse 4; mkS SEndIf 5;
         mkS (SNext (Some 0)) 6]
  = ROk [TBlock BFor (mkS (SFor 0) 1)
           [TBlock BIf (mkS SIfOpen 2) [TStmt (mkS SSimple 3); TStmt (mkS SElse 4)] (mkS SEndIf 5)]
           (mkS (SNext (Some 0)) 6)].
Proof. reflexivity. Qed.

(* SUB / FOR / END SUB: wrong terminator, reported on line 3 *)
Example C05_example_wrong_terminator :
  front [mkS SSubOpen 1; mkS (SFor 0) 2; mkS SEndSub 3; mkS (SNext None) 4]
  = RErr (EExpectedEnd BFor) 3.
Proof. reflexivity. Qed.

(* FOR i / NEXT j *)
Example C05_example_next :
  front [mkS (SFor 0) 1; mkS (SNext (Some 1)) 2] = RErr ENextVar 2.
Proof. reflexivity. Qed.

(* the code types  INTEGER + STRING  as an error and  STRING + STRING  as STRING *)
Example C05_example_table :
  In (OP_ADD, 1, 5, 0, 0) binop_table /\ effective 0 0 = None /\
  In (OP_ADD, 5, 5, 5, 0) binop_table /\ rule_bin OP_ADD 5 5 = Some 5.
Proof.
  (* 11510 and 15560: the two entries as Gen/TypeTable.v packs them *)
  repeat split.
  - exact (binop_table_has 11510 eq_refl).
  - exact (binop_table_has 15560 eq_refl).
Qed.
