(* C17 - PRINT lays out items, print zones and line ends as QBASIC prescribes. *)
From Coq Require Import ZArith List Bool.
From QV Require Import Sx Strs Cell Print PrintProofs.
Import ListNotations.
Open Scope Z_scope.

Theorem C17_num_then_blank : forall items t,
  body (items ++ [PNum t]) = body items ++ t ++ [ch_space].
Proof. exact num_then_blank. Qed.
Print Assumptions C17_num_then_blank.

Theorem C17_str_verbatim : forall items s, body (items ++ [PStr s]) = body items ++ s.
Proof. exact str_verbatim. Qed.
Print Assumptions C17_str_verbatim.

Theorem C17_semi_nothing : forall items, body (items ++ [PSemi]) = body items.
Proof. exact semi_nothing. Qed.
Print Assumptions C17_semi_nothing.

(* a comma pads with 1..14 blanks to the next multiple of 14 columns *)
Theorem C17_comma_to_zone : forall items,
  exists n : nat,
    body (items ++ [PComma]) = body items ++ spaces n /\
    (1 <= n <= 14)%nat /\
    (Z.of_nat (length (body (items ++ [PComma])))) mod 14 = 0 /\
    Z.of_nat (length (body items)) < Z.of_nat (length (body (items ++ [PComma])))
      <= Z.of_nat (length (body items)) + 14.
Proof. exact comma_to_zone. Qed.
Print Assumptions C17_comma_to_zone.

(* line break unless the statement ends in a separator; PRINT alone = line break *)
Theorem C17_newline_rule : forall items,
  (ends_in_sep items = false -> print_text items = body items ++ crlf) /\
  (ends_in_sep items = true -> print_text items = body items).
Proof. exact newline_rule. Qed.
Print Assumptions C17_newline_rule.

Theorem C17_print_alone : print_text [] = crlf.
Proof. reflexivity. Qed.
Print Assumptions C17_print_alone.

(* the text is a function of the item sequence, built left to right *)
Theorem C17_body_app : forall a b, body (a ++ b) = fold_left put_item b (body a).
Proof. exact body_app. Qed.
Print Assumptions C17_body_app.

(* the device decodes exactly what the code generator pushed, for all values *)
Theorem C17_protocol_roundtrip : forall fmt args,
  decode_print (encoded_args fmt args) = POk fmt args.
Proof. exact print_protocol_roundtrip. Qed.
Print Assumptions C17_protocol_roundtrip.

Theorem C17_exec_print_plain : forall args items,
  map_opt item_of_arg args = Some items ->
  exec_print (encoded_args None args) = OutText [print_text items].
Proof. exact exec_print_plain. Qed.
Print Assumptions C17_exec_print_plain.

(* non-vacuity: a concrete statement  PRINT 1, "ab";  *)
Example C17_example :
  exec_print (encoded_args None [AVal (CI 1); AComma; AVal (CStr [97; 98]); ASemi])
  = OutText [[32; 49; 32] ++ spaces 11 ++ [97; 98]].
Proof. vm_compute. reflexivity. Qed.
