(* C16 - numbers survive conversion to text and back.
   Integers: full, for every z in Z (INTEGER and LONG are sub-ranges).
   Floats: what the shortest-digit search guarantees by construction, the
   call-site and negation clauses; the clauses the unchanged tree violates are
   stated as _refuted with their witnesses (findings/C16.json). *)
From Coq Require Import ZArith List Bool Lia.
From QV Require Import Sx Strs Fl Dec NumFmt Cell Using Print PrintProofs Literal NumSpec NumText
     UsingDigits NumFmtProofs.
Import ListNotations.
Open Scope Z_scope.

(* text = blank or '-' followed by the plain decimal digits of |z|: all
   digits, value |z|, no leading zero unless z = 0 *)
Theorem C16_fmt_int_shape : forall z,
  fmt_int z = lead_of z :: nat_digits (Z.abs z)
  /\ forallb is_digit (nat_digits (Z.abs z)) = true
  /\ digits_val (nat_digits (Z.abs z)) = Some (Z.abs z)
  /\ (z <> 0 -> exists d r, nat_digits (Z.abs z) = (ch_0 + d) :: r /\ 1 <= d <= 9)
  /\ (z = 0 -> nat_digits (Z.abs z) = [ch_0]).
Proof. exact fmt_int_shape. Qed.
Print Assumptions C16_fmt_int_shape.

(* the same, against the specification predicate of NumSpec *)
Theorem C16_fmt_int_plain : forall z, plain_int_text z (fmt_int z) = true.
Proof. exact fmt_int_plain. Qed.
Print Assumptions C16_fmt_int_plain.

(* READ and INPUT use Python int(): it returns z, for every z *)
Theorem C16_read_fmt_int : forall z, py_int (fmt_int z) = Some z.
Proof. exact py_int_fmt_int. Qed.
Print Assumptions C16_read_fmt_int.

Theorem C16_read_fmt_int_integer : forall z,
  in_int z = true -> read_num TInt (fmt_int z) = RdCell (CI z).
Proof. intros z H. unfold read_num. now rewrite py_int_fmt_int, H. Qed.
Print Assumptions C16_read_fmt_int_integer.

Theorem C16_read_fmt_int_long : forall z,
  in_long z = true -> read_num TLong (fmt_int z) = RdCell (CL z).
Proof. intros z H. unfold read_num. now rewrite py_int_fmt_int, H. Qed.
Print Assumptions C16_read_fmt_int_long.

Theorem C16_input_fmt_int_integer : forall z,
  in_int z = true -> input_num TInt (fmt_int z) = RdCell (CI z).
Proof. intros z H. unfold input_num. now rewrite no_comma_fmt_int, py_int_fmt_int, H. Qed.
Print Assumptions C16_input_fmt_int_integer.

Theorem C16_input_fmt_int_long : forall z,
  in_long z = true -> input_num TLong (fmt_int z) = RdCell (CL z).
Proof. intros z H. unfold input_num. now rewrite no_comma_fmt_int, py_int_fmt_int, H. Qed.
Print Assumptions C16_input_fmt_int_long.

(* VAL: the leading blank is skipped by the grammar; every z that fits a LONG
   comes back (as the DOUBLE of_Z z); any other z makes the host SyntaxError
   "does not fit in LONG" escape _exec_sdbl *)
Theorem C16_val_fmt_int : forall z,
  val_text (fmt_int z) =
  if (z <? -2147483648) || (z >? 2147483647) then VSyntaxError 7 else VOk (of_Z z).
Proof. exact val_fmt_int. Qed.
Print Assumptions C16_val_fmt_int.

(* ... and that DOUBLE is exactly z: sign of z, m * 2^e = |z| *)
Theorem C16_val_fmt_int_value : forall z,
  -2147483648 <= z <= 2147483647 ->
  exists m e, val_text (fmt_int z) = VOk (FFin (z <? 0) m e) /\ 0 <= e /\ m * 2 ^ e = Z.abs z.
Proof.
  intros z Hr. rewrite val_fmt_int. unfold val_of_int.
  replace ((z <? -2147483648) || (z >? 2147483647)) with false by lia.
  destruct (of_Z_value z ltac:(lia)) as (m & e & -> & H). now exists m, e.
Qed.
Print Assumptions C16_val_fmt_int_value.

(* PARTIAL (conditional form): the digits (c, k) returned by the search are a
   candidate that the search itself converted back (dec_to_fl) and found equal
   to x, or the exact finite decimal expansion of x, or the 20-digit fall-back.
   Missing: that the fall-back is never reached (the 17-digit theorem) and the
   correctness of dec_to_fl; both are checked on every value explored. *)
Theorem C16_shortest_roundtrip_partial : forall x neg top rest q fuel n c k,
  shortest_from x neg top rest q n fuel = (c, k) ->
  fl_same_mag (dec_to_fl neg c k) x = true
  \/ (rest = false /\ exists n', c * 10 ^ (topd - n') = top /\ k = q + (topd - n'))
  \/ (c, k) = (top, q).
Proof.
  intros x neg top rest q fuel n c k H.
  apply shortest_from_cases in H as [E | (n' & _ & Hk & [(Hr & -> & Hd) | (_ & Hm)])]; eauto 6.
Qed.
Print Assumptions C16_shortest_roundtrip_partial.

(* at most 17 digits unless the fall-back is taken (fuel 17 from n = 1) *)
Theorem C16_shortest_digits_partial : forall x neg top rest q fuel n c k,
  0 <= top < 10 ^ topd -> 1 <= n -> n + Z.of_nat fuel <= 18 ->
  shortest_from x neg top rest q n fuel = (c, k) ->
  (c, k) = (top, q) \/ 0 <= c <= 10 ^ 17.
Proof.
  intros x neg top rest q fuel n c k Ht Hn Hf H.
  apply shortest_from_cases in H as [E | (n' & Hn' & _ & Hc)]; [left; exact E | right].
  pose proof (first_digits_bound top n' Ht ltac:(unfold topd; lia)).
  pose proof (Z.pow_le_mono_r 10 n' 17). cbv zeta in Hc. lia.
Qed.
Print Assumptions C16_shortest_digits_partial.

(* PRINT and STR$ show the same text: both call sites are format_number *)
Theorem C16_print_str_same_digits : forall c t,
  exec_ntos c = NtosOk t ->
  Print.num_text c = Some t /\
  exec_print (encoded_args None [AVal c]) = OutText [t ++ [ch_space] ++ crlf].
Proof. exact print_str_same_digits. Qed.
Print Assumptions C16_print_str_same_digits.

(* DOUBLE: a number and its negation show the same digits, for every value *)
Theorem C16_negation_same_digits_double : forall m e, 0 < m ->
  exists digits,
    fmt_float false (FFin false m e) = ch_space :: digits /\
    fmt_float false (FFin true m e) = ch_minus :: digits.
Proof. exact (fmt_rounded_neg false). Qed.
Print Assumptions C16_negation_same_digits_double.

(* SINGLE: refuted (D22): 123456792 prints " 123456800", -123456792 "-123457000" *)
Theorem C16_negation_same_digits_single_refuted :
  exists m e, 0 < m /\ to_single (FFin false m e) = Some (FFin false m e) /\
    fmt_float true (FFin false m e) = [32; 49; 50; 51; 52; 53; 54; 56; 48; 48] /\
    fmt_float true (FFin true m e) = [45; 49; 50; 51; 52; 53; 55; 48; 48; 48] /\
    same_digits (fmt_float true (FFin false m e)) (fmt_float true (FFin true m e)) = false.
Proof.
  exists 15432099, 3. fold w_single_neg. change (FFin true 15432099 3) with (fneg w_single_neg).
  rewrite fmt_single_neg_plus, fmt_single_neg_minus.
  split; [reflexivity|]. vm_compute. repeat split; reflexivity.
Qed.
Print Assumptions C16_negation_same_digits_single_refuted.

(* ... and with fixes/C16-D22neg.diff applied (model fmt_float_D22fix: the digit
   count is taken on the text of |x|) the clause holds for SINGLE.  PARTIAL:
   guarded by "the 7-digit rounding of x is not zero" (never the case for a
   plain-form SINGLE, >= 1e-4; not proved) *)
Theorem C16_negation_same_digits_single_after_fix_partial : forall m e,
  0 < m -> round32 false m e false = FFin false m e ->
  (exists m1 e1, single_rounded_fixed (FFin false m e) = FFin false m1 e1 /\ 0 < m1) ->
  exists digits,
    fmt_float_D22fix true (FFin false m e) = ch_space :: digits /\
    fmt_float_D22fix true (FFin true m e) = ch_minus :: digits.
Proof. exact negation_same_digits_single_fixed. Qed.
Print Assumptions C16_negation_same_digits_single_after_fix_partial.

(* SINGLE "at most 7 significant digits": refuted (D22): " 1.4999999621068127E-05" *)
Theorem C16_single_seven_digits_refuted :
  exists x, to_single x = Some x /\
    fmt_float true x =
      [32; 49; 46; 52; 57; 57; 57; 57; 57; 57; 54; 50; 49; 48; 54; 56; 49; 50; 55; 69; 45; 48; 53] /\
    tv_digits (judge_text x (fmt_float true x)) = 17 /\
    float_text_ok true x (fmt_float true x) = false.
Proof. exists w_single_exp. rewrite fmt_single_exp. vm_compute. repeat split; reflexivity. Qed.
Print Assumptions C16_single_seven_digits_refuted.

(* DOUBLE read back by READ / INPUT: refuted (D23): " 1D+300" *)
Theorem C16_double_D_marker_refuted :
  exists x, fmt_float false x = [32; 49; 68; 43; 51; 48; 48] /\
    py_float (fmt_float false x) = None /\
    read_num TDouble (fmt_float false x) = RdBadType /\
    input_num TDouble (fmt_float false x) = InReject /\
    val_text (fmt_float false x) = VOk x.
Proof. exists w_double_big. rewrite fmt_double_big. vm_compute. repeat split; reflexivity. Qed.
Print Assumptions C16_double_D_marker_refuted.

(* DOUBLE read back by VAL: refuted for plain integer texts beyond LONG: " 3000000000" *)
Theorem C16_val_big_integer_text_refuted :
  exists x, fmt_float false x = [32; 51; 48; 48; 48; 48; 48; 48; 48; 48; 48] /\
    val_text (fmt_float false x) = VSyntaxError 7 /\
    read_num TDouble (fmt_float false x) = RdCell (CD x).
Proof. exists w_double_3e9. vm_compute. repeat split; reflexivity. Qed.
Print Assumptions C16_val_big_integer_text_refuted.

(* "within half a unit of the last shown digit": refuted at 2^89, whose
   shortest round-tripping digits 6.189700196426902D+26 are 0.626 units away *)
Theorem C16_half_unit_pow2_refuted :
  exists x, tv_numeral (judge_text x (fmt_float false x)) = true /\
    tv_digits (judge_text x (fmt_float false x)) = 16 /\
    tv_half (judge_text x (fmt_float false x)) = false /\
    py_float (map (fun c => if c =? ch_D then ch_e else c) (fmt_float false x)) = Some x.
Proof. exists w_double_pow2. rewrite fmt_double_pow2. vm_compute. repeat split; reflexivity. Qed.
Print Assumptions C16_half_unit_pow2_refuted.

Example C16_example_double :
  let x := FFin false 3602879701896397 (-55) in   (* 0.1 *)
  fmt_float false x = [32; 48; 46; 49] /\
  float_text_ok false x (fmt_float false x) = true /\
  read_num TDouble (fmt_float false x) = RdCell (CD x) /\
  input_num TDouble (fmt_float false x) = RdCell (CD x) /\
  val_text (fmt_float false x) = VOk x /\
  fmt_float false (fneg x) = [45; 48; 46; 49].
Proof. exact double_example_ok. Qed.

Example C16_example_single :
  let x := FFin false 10113579 (-13) in   (* the SINGLE nearest to 1234.5678 *)
  fmt_float true x = [32; 49; 50; 51; 52; 46; 53; 54; 56] /\
  float_text_ok true x (fmt_float true x) = true.
Proof. destruct single_example_ok as (Htext & Hok & _). exact (conj Htext Hok). Qed.

Example C16_example_int :
  fmt_int (-32768) = [45; 51; 50; 55; 54; 56] /\ fmt_int 7 = [32; 55] /\
  val_text (fmt_int (-32768)) = VOk (FFin true 1 15) /\
  val_text (fmt_int 2147483648) = VSyntaxError 7.
Proof. exact int_example_ok. Qed.
