(* C12 - debugger stepping and breakpoints are transparent and stop correctly.
   Statements, each proved by [exact] or by a derivation of a few lines from a
   theorem of Proofs/, and Print Assumptions.  Model: Models/Debugger.v over
   Models/Machine.v + Models/Cpu.v.  Proofs: Proofs/MachineFrame.v (no
   instruction reads halted/reason; events are only appended) and
   Proofs/DebuggerProofs.v.

   Vocabulary.  [session m di sc fuel h] = Cmd(machine, module) (load the
   instructions, run to the first statement) followed by the command history h.
   [d_st d] is the machine state, [mn (d_m d)] the number of cpu.tick() calls
   made so far, [mres (d_m d)] whether the debugger ever drove a finished
   machine (tick with halted set / pc past the end, or run() entered with
   halted set).  [ticks m n s] = n applications of tick.  [run] (Cpu.v) is the
   free run.  [loads_clean m]: the linear decoding done by load_instructions
   meets no unknown opcode (true of compiled modules; decidable).  Results with
   status NoFuel (a loop of the debugger ran out of fuel), Crashed (host
   exception) or NeedIn (scripted input exhausted) are excluded by
   [d_status d = Live]. *)
From Coq Require Import ZArith List Bool.
From QV Require Import Machine Cpu Debugger MachineFrame DebuggerProofs.
Import ListNotations.
Open Scope Z_scope.

(* For EVERY command history: the machine component is what [mn] applications
   of tick make of the initial state, in every field except the two the
   debugger itself overwrites (run() re-initialises halted/halt_reason, sets
   halt_reason to BREAKPOINT / END_OF_CODE): commands never touch the machine
   except through tick. *)
Theorem C12_commands_only_tick : forall m di sc fuel h,
  loads_clean m = true ->
  let d := session m di sc fuel h in
  d_status d = Live ->
  exists sp, ticks m (Z.to_nat (mn (d_m d))) (init_state m sc) = Some sp /\
             set_halt sp false 0 = set_halt (d_st d) false 0.
Proof. exact commands_only_tick. Qed.
Print Assumptions C12_commands_only_tick.

(* hence the device events after any history are those of [mn] ticks *)
Theorem C12_events_are_tick_events : forall m di sc fuel h,
  loads_clean m = true ->
  let d := session m di sc fuel h in
  d_status d = Live ->
  exists sp, ticks m (Z.to_nat (mn (d_m d))) (init_state m sc) = Some sp /\
             events (d_st d) = events sp.
Proof.
  intros m di sc fuel h C d L. destruct (session_inv m di sc fuel h C L) as [_ [sp [T [E _]]]].
  exists sp. split; [exact T | symmetry; exact (eqh_events _ _ E)].
Qed.
Print Assumptions C12_events_are_tick_events.

(* a tick only appends device events (events are kept most recent first) *)
Theorem C12_tick_appends_events : forall m n s a,
  ticks m n s = Some a -> exists l, events a = l ++ events s.
Proof. exact ticks_ext. Qed.
Print Assumptions C12_tick_appends_events.

(* the device events form a chain: what one more command adds is appended, and
   the tick counter never decreases *)
Theorem C12_events_chain : forall m di sc fuel h c,
  loads_clean m = true ->
  let d := session m di sc fuel h in
  let d' := session m di sc fuel (h ++ [c]) in
  d_status d' = Live ->
  mn (d_m d) <= mn (d_m d') /\ exists l, events (d_st d') = l ++ events (d_st d).
Proof.
  intros m di sc fuel h c C d d'. unfold d', session, exec_cmds. rewrite fold_left_app.
  exact (exec_cmd_chain m di fuel _ 0 _ c (session_inv m di sc fuel h C)).
Qed.
Print Assumptions C12_events_chain.

(* ... and, as long as the debugger never drove a finished machine, they are a
   prefix of the free run's events, reached after no more ticks than the free
   run makes.  _partial: the guard [mres = false] is needed on the unchanged
   tree (D25b, D25c: a halted machine can be resumed, see
   C12_transparent_refuted). *)
Theorem C12_events_prefix_of_free_run_partial : forall m di sc fuel h fuel' sf N,
  loads_clean m = true ->
  let d := session m di sc fuel h in
  d_status d = Live -> mres (d_m d) = false ->
  run m fuel' (init_state m sc) 0 = (sf, StHalt, N) ->
  mn (d_m d) <= N /\ exists l, events sf = l ++ events (d_st d).
Proof.
  intros m di sc fuel h fuel' sf N C d L.
  exact (Inv_prefix_of_free_run _ _ _ _ _ _ _ (session_inv m di sc fuel h C L)).
Qed.
Print Assumptions C12_events_prefix_of_free_run_partial.

(* Transparency: any history that ends with the machine halted (e.g. by a
   final continue, see C12_breakpoint_stops_only_at_bp) ends in the free run's
   final state - same device events, same tick count, every field equal except
   halt_reason, which is the free run's or was overwritten with BREAKPOINT
   (D25b).  _partial: guard [mres = false] as above. *)
Theorem C12_transparent_partial : forall m di sc fuel h fuel' sf N,
  loads_clean m = true ->
  let d := session m di sc fuel h in
  d_status d = Live -> mres (d_m d) = false -> halted (d_st d) = true ->
  run m fuel' (init_state m sc) 0 = (sf, StHalt, N) ->
  set_halt (d_st d) true 0 = set_halt sf true 0 /\
  halted sf = true /\
  (reason (d_st d) = reason sf \/ reason (d_st d) = H_BREAKPOINT) /\
  events (d_st d) = events sf /\
  mn (d_m d) = N.
Proof. exact transparent. Qed.
Print Assumptions C12_transparent_partial.

(* without the guard the property is false of the faithful model: the program
   of the witness halts with a trap after one PRINT; continue; continue
   resumes behind the trap and prints three times (D25c) *)
Theorem C12_transparent_refuted :
  exists m di sc fuel h sf N,
    loads_clean m = true /\
    let d := session m di sc fuel h in
    d_status d = Live /\ halted (d_st d) = true /\ mres (d_m d) = true /\
    run m fuel (init_state m sc) 0 = (sf, StHalt, N) /\
    reason sf = H_TRAP /\
    length (events sf) = 1%nat /\ length (events (d_st d)) = 3%nat /\ mn (d_m d) > N.
Proof.
  exists wit2_module, wit2_di, no_script, wit_fuel, [CContinue; CContinue].
  eexists. eexists. vm_compute. repeat split; reflexivity.
Qed.
Print Assumptions C12_transparent_refuted.

(* continue returns with the machine finished, or with pc on a user breakpoint
   (reported, and recorded as last_breakpoint) *)
Theorem C12_breakpoint_stops_only_at_bp : forall m di fuel d,
  d_status d = Live -> blocked (d_st d) = false ->
  let d' := exec_cmd m di fuel d CContinue in
  d_status d' = Live ->
  (finished m (d_st d') = true /\ d_msgs d' = []) \/
  (In (pc (d_st d')) (d_bps d) /\ d_msgs d' = [MHit] /\
   mlast (d_m d') = Some (HitUser (pc (d_st d')))).
Proof.
  intros m di fuel d L B d' L'. unfold d', exec_cmd in *. rewrite L, B in *.
  destruct (finish_stop m di _ _ _ d _ true (cpu_run_stop m di (d_bps d) TNoTemp fuel (d_m d)) L')
    as [S | [S | []]]; [left | right]; exact S.
Qed.
Print Assumptions C12_breakpoint_stops_only_at_bp.

(* ... and it stops at the FIRST such tick, each time: no state strictly
   between the entry of run() and the state it returns with sits on a user
   breakpoint (or is halted).  run() starts from the machine state with
   halted/halt_reason re-initialised. *)
Theorem C12_continue_stops_at_first_breakpoint : forall m di fuel d,
  d_status d = Live -> blocked (d_st d) = false ->
  let d' := exec_cmd m di fuel d CContinue in
  forall k sk, (0 < k)%nat -> Z.of_nat k < mn (d_m d') - mn (d_m d) ->
  ticks m k (set_halt (d_st d) false H_NONE) = Some sk ->
  user_hit (d_bps d) (pc sk) = None /\ halted sk = false.
Proof.
  intros m di fuel d L B d' k sk K Lk T. unfold d', exec_cmd in Lk. rewrite L, B, finish_m in Lk.
  destruct (run_loop_first m di (d_bps d) TNoTemp fuel _ k sk Lk T) as [Q2 Q1].
  split; [exact (check_bps_none m di _ _ _ (Q1 K)) | exact Q2].
Qed.
Print Assumptions C12_continue_stops_at_first_breakpoint.

(* break L adds the start address of the first statement, in source order, at
   or after line L that has at least one instruction *)
Theorem C12_break_resolves_line : forall di l r,
  resolve_line di l = Some r ->
  In r di /\ l <= r_line r /\ 0 < rec_size r /\
  forall y, In y di -> l <= r_line y -> 0 < rec_size y -> r_soff r <= r_soff y.
Proof. exact resolve_line_spec. Qed.
Print Assumptions C12_break_resolves_line.

Theorem C12_break_sets_resolved : forall m fuel di l d r,
  d_status d = Live -> 0 <= l -> resolve_line di l = Some r ->
  let d' := exec_cmd m di fuel d (CBreak l) in
  d_bps d' = d_bps d ++ [r_start r] /\ d_m d' = d_m d.
Proof.
  intros m fuel di l d r L P R. unfold exec_cmd, do_break.
  rewrite L, (proj2 (Z.ltb_ge l 0) P), R. split; reflexivity.
Qed.
Print Assumptions C12_break_sets_resolved.

(* delbr L removes one occurrence of that address and nothing else, and leaves the machine alone *)
Theorem C12_delbr_removes : forall m fuel di l d r,
  d_status d = Live -> 0 <= l -> resolve_line di l = Some r ->
  let d' := exec_cmd m di fuel d (CDelbr l) in
  let a := r_start r in
  count_occ Z.eq_dec (d_bps d') a = pred (count_occ Z.eq_dec (d_bps d) a) /\
  (forall b, b <> a -> count_occ Z.eq_dec (d_bps d') b = count_occ Z.eq_dec (d_bps d) b) /\
  d_m d' = d_m d.
Proof. exact delbr_removes. Qed.
Print Assumptions C12_delbr_removes.

(* an address that is not (any longer) in the list never stops continue *)
Theorem C12_absent_breakpoint_never_stops : forall m di fuel d a,
  d_status d = Live -> blocked (d_st d) = false -> ~ In a (d_bps d) ->
  let d' := exec_cmd m di fuel d CContinue in
  d_status d' = Live -> d_msgs d' = [MHit] -> pc (d_st d') <> a.
Proof.
  intros m di fuel d a L B NI d' L' M.
  destruct (C12_breakpoint_stops_only_at_bp m di fuel d L B L') as [[_ E] | [I _]];
    [fold d' in E; congruence | intros <-; exact (NI I)].
Qed.
Print Assumptions C12_absent_breakpoint_never_stops.

(* step: unless a loop of the debugger ran out of fuel (the program loops
   inside one statement), it returns with the machine finished, on a user
   breakpoint, or in a non-empty statement different from the one it started
   in.  _partial: fuel exhaustion is excluded (d_status d' = Live), and a user
   breakpoint may stop it inside the same statement. *)
Theorem C12_step_progress_partial : forall m di fuel d stmt,
  d_status d = Live -> blocked (d_st d) = false ->
  find_nonempty m di (pc (d_st d)) = Ok stmt ->
  let d' := exec_cmd m di fuel d CStep in
  d_status d' = Live ->
  finished m (d_st d') = true \/
  In (pc (d_st d')) (d_bps d) \/
  exists r, find_nonempty m di (pc (d_st d')) = Ok (Some r) /\ stmt_neq (Some r) stmt = true.
Proof. exact step_progress. Qed.
Print Assumptions C12_step_progress_partial.

(* step stops at the first instruction executed outside the statement it started
   in: every state strictly before the stop is in no statement or in that same
   statement - so iterating step visits the statements in execution order
   without skipping one *)
Theorem C12_step_stops_at_first_statement_change : forall m di fuel d stmt,
  d_status d = Live -> blocked (d_st d) = false ->
  find_nonempty m di (pc (d_st d)) = Ok (Some stmt) ->
  let d' := exec_cmd m di fuel d CStep in
  forall k sk, (0 < k)%nat -> Z.of_nat k < mn (d_m d') - mn (d_m d) ->
  ticks m k (set_halt (d_st d) false H_NONE) = Some sk ->
  user_hit (d_bps d) (pc sk) = None /\ halted sk = false /\
  (find_nonempty m di (pc sk) = Ok None \/
   exists r, find_nonempty m di (pc sk) = Ok (Some r) /\ rec_eqb r stmt = true).
Proof. exact step_first_change. Qed.
Print Assumptions C12_step_stops_at_first_statement_change.

Theorem C12_next_progress_partial : forall m di fuel d stmt,
  d_status d = Live -> blocked (d_st d) = false ->
  find_nonempty m di (pc (d_st d)) = Ok stmt ->
  let d' := exec_cmd m di fuel d CNext in
  d_status d' = Live ->
  halted (d_st d') = true \/
  In (pc (d_st d')) (d_bps d) \/
  exists new, find_nonempty m di (pc (d_st d')) = Ok new /\ stmt_neq new stmt = true.
Proof.
  intros m di fuel d stmt L B F d' L'. unfold d', exec_cmd, do_next in *. rewrite L, B, F in *.
  destruct (finish_stop m di _ _ _ d _ true (next_loop_stop m di (d_bps d) stmt fuel fuel (d_m d)) L')
    as [[[S | S] _] | [[S _] | []]]; auto.
Qed.
Print Assumptions C12_next_progress_partial.

(* what cpu.next() does guarantee when it skips a call: it returns with the
   machine finished or with pc at the return address.  _partial: the property
   wants "in the activation the command was issued in"; that needs the guard
   "the first time pc equals the return address is the return of this very
   call", which fails for recursive procedures (next theorem). *)
Theorem C12_next_stops_at_return_address_partial : forall m di bps fuel x t size x',
  (pc (ms x) <? 0) || (pc (ms x) >=? code_len m) = false ->
  decode (skipn (Z.to_nat (pc (ms x))) (m_code m)) = DOk (ICall t) size ->
  cpu_next m di bps fuel x = RDone x' ->
  finished m (ms x') = true \/ pc (ms x') = pc (ms x) + size.
Proof.
  intros m di bps fuel x t size x' R D. unfold cpu_next. rewrite R, D.
  pose proof (cpu_run_stop m di bps (TNext (pc (ms x) + size)) fuel x) as S.
  destruct (cpu_run _ _ _ _ _ _) as [x1 | x1 [a|] | | |]; intros [= <-]; [left; exact S | right; apply S].
Qed.
Print Assumptions C12_next_stops_at_return_address_partial.

(* D25: next stops inside the callee of a recursive procedure *)
Theorem C12_next_skips_calls_refuted :
  exists m di sc fuel h,
    loads_clean m = true /\
    let d := session m di sc fuel h in
    let d' := exec_cmd m di fuel d CNext in
    d_status d = Live /\ d_status d' = Live /\ mres (d_m d') = false /\
    d_bps d = [] /\ d_msgs d' = [] /\ halted (d_st d') = false /\
    cur_line m di (d_st d) = Some 6 /\ cur_line m di (d_st d') = Some 7 /\
    depth (d_st d) = 2 /\ depth (d_st d') = 3.
Proof.
  exists wit_module, wit_di, no_script, wit_fuel, [CStep; CStep; CStep; CStep].
  vm_compute. repeat split; reflexivity.
Qed.
Print Assumptions C12_next_skips_calls_refuted.

(* non-vacuity: a session on the compiled witness module that steps, sets,
   hits and deletes a breakpoint and runs to the end satisfies the guard *)
Example C12_example :
  let d := session wit_module wit_di no_script wit_fuel
                   [CStep; CBreak 7; CContinue; CContinue; CDelbr 7; CNext; CContinue] in
  d_status d = Live /\ mres (d_m d) = false /\ halted (d_st d) = true /\ reason (d_st d) = H_INSTRUCTION /\
  d_bps d = [] /\ length (events (d_st d)) = 5%nat.
Proof. exact session_example. Qed.
