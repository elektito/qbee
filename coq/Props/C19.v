(* C19 - PRINT USING fields keep their width, rounding and overflow mark.
   The unchanged code does NOT meet the specification for every field and
   value (DESIGN.md section 6, D16 and D24): the full statements
        forall w o v, render_num w o v = UOk t  with  spec_field w o v = Some t
        forall fmt vals, using_format fmt vals is no crash
   are refuted by the witnesses at the end; what is proved is the statement
   under decidable guards ([field_guard], [using_guard], [total_guard]) plus
   the invariants that hold for every field and value. *)
From Coq Require Import ZArith List Bool.
From QV Require Import Sx Strs Fl Dec Cell Using UsingSpec Print PrintProofs UsingProofs.
Import ListNotations.
Open Scope Z_scope.

(* a format made of literal characters and "_c" escapes is one literal part
   whose text is the format with every "_c" replaced by c *)
Theorem C19_scan_literal_copy : forall s t,
  literal_text s = Some t ->
  parse_format s = Some (match t with [] => [] | _ => [PNon t] end).
Proof.
  intros s t H. unfold parse_format.
  now rewrite (scan_literal _ s [] t), app_nil_r, flush_rev by (apply Nat.lt_succ_diag_r || exact H).
Qed.
Print Assumptions C19_scan_literal_copy.

(* without any of  # + - & ! _  the format stands for itself *)
Theorem C19_literal_text_plain : forall s,
  forallb (fun c => negb (is_special c)) s = true -> literal_text s = Some s.
Proof. exact literal_text_plain. Qed.
Print Assumptions C19_literal_text_plain.

Theorem C19_str_field_amp : forall s, using_format [ch_amp] [UStr s] = UOk s.
Proof. reflexivity. Qed.
Print Assumptions C19_str_field_amp.

Theorem C19_str_field_bang : forall c s, using_format [ch_bang] [UStr (c :: s)] = UOk [c].
Proof. reflexivity. Qed.
Print Assumptions C19_str_field_bang.

(* never shorter than the field; exactly the width unless marked *)
Theorem C19_num_field_width : forall w o v s,
  render_num w o v = UOk s ->
  w <= zlen s /\ (hd_error s <> Some ch_pct -> zlen s = w).
Proof. exact num_field_width. Qed.
Print Assumptions C19_num_field_width.

(* "%" leads exactly when the text exceeds the field, and then what follows
   the mark is by itself longer than the field *)
Theorem C19_overflow_mark : forall w o v s,
  1 <= w -> render_num w o v = UOk s ->
  (hd_error s = Some ch_pct <-> w < zlen s) /\
  (w < zlen s -> exists r, s = ch_pct :: r /\ w < zlen r /\ np r = true).
Proof. exact overflow_mark. Qed.
Print Assumptions C19_overflow_mark.

(* PARTIAL: only inside [field_guard] (Models/UsingSpec.v field_reasons): the
   field has a decimal point or the value is an INTEGER/LONG; only '#' after
   the point (no trailing sign, no comma there) and at least one; a trailing
   sign only with a negative value or one spare position; finite value.
   Missing: everything outside the guard, where the code is wrong (D24). *)
Theorem C19_num_field_partial : forall w o v,
  field_guard w o v = true ->
  exists t, render_num w o v = UOk t /\ spec_field w o v = Some t.
Proof. exact num_field_partial. Qed.
Print Assumptions C19_num_field_partial.

(* the rounding demanded is a nearest rounding (ties go to the even digit) *)
Theorem C19_round_nearest : forall a p, 0 < p ->
  2 * Z.abs (rne_div a p * p - a) <= p /\
  (2 * (a mod p) = p -> Z.even (rne_div a p) = true).
Proof. exact rne_div_nearest. Qed.
Print Assumptions C19_round_nearest.

(* and it is taken on the exact value of the binary number *)
Theorem C19_exact_dec_value : forall m e N q, exact_dec m e = (N, q) ->
  (0 <= e -> q = 0 /\ N = m * 2 ^ e) /\
  (e < 0 -> q = e /\ N * 2 ^ (- e) = m * 10 ^ (- e)).
Proof. exact exact_dec_value. Qed.
Print Assumptions C19_exact_dec_value.

(* the output is the concatenation, in format order, of one piece per part;
   the j-th field's piece is computed from the j-th value alone *)
Theorem C19_values_left_to_right : forall parts n vals i out s,
  render parts n vals i out = UOk s ->
  exists ps, pieces parts vals = Some ps /\ s = out ++ concat ps.
Proof. exact values_left_to_right. Qed.
Print Assumptions C19_values_left_to_right.

Theorem C19_render_app : forall p1 p2 n vals1 vals2 i out s1,
  render p1 n vals1 i out = UOk s1 ->
  render (p1 ++ p2) n (vals1 ++ vals2) i out = render p2 n vals2 (i + nfields p1) s1.
Proof. exact render_app. Qed.
Print Assumptions C19_render_app.

(* no host exception when the format does not end in "_", there is exactly
   one value per field, strings for "&" and "!" (non-empty for "!") and
   numbers for numeric fields *)
Theorem C19_render_total_on_guard : forall fmt vals,
  total_guard fmt vals = true -> exists s, using_format fmt vals = UOk s.
Proof.
  intros fmt vals. unfold total_guard, using_format.
  destruct (parse_format fmt) as [parts|]; [|discriminate].
  intro H. apply render_total; [exact H | apply nfields_le_length].
Qed.
Print Assumptions C19_render_total_on_guard.

(* PARTIAL (guard = every field inside field_guard + total_guard): the text
   is the one the specification demands *)
Theorem C19_using_partial : forall fmt vals,
  using_guard fmt vals = true ->
  exists t, using_format fmt vals = UOk t /\ using_spec fmt vals = Some t.
Proof. exact using_partial. Qed.
Print Assumptions C19_using_partial.

(* a line break follows unless the statement ends in a separator *)
Theorem C19_newline_rule : forall fs args uv s,
  args <> [] ->
  map_opt uval_of_cell (args_vals args) = Some uv ->
  using_format fs uv = UOk s ->
  emit (Some (CStr fs)) args = OutText (if args_end_sep args then [s] else [s; crlf]).
Proof. exact using_newline_rule. Qed.
Print Assumptions C19_newline_rule.

(* PARTIAL: what the device prints for the cells the code generator pushes
   for PRINT USING fs; args  is what the specification demands *)
Theorem C19_stmt_partial : forall fs args uv,
  args <> [] ->
  map_opt uval_of_cell (args_vals args) = Some uv ->
  using_guard fs uv = true ->
  exists calls,
    exec_print (encoded_args (Some (CStr fs)) args) = OutText calls /\
    using_stmt_spec fs uv (args_end_sep args) = Some calls.
Proof.
  intros fs args uv Hne Huv Hg. destruct (using_partial fs uv Hg) as (t & H1 & H2).
  unfold exec_print, using_stmt_spec.
  rewrite print_protocol_roundtrip, (using_newline_rule fs args uv t Hne Huv H1), H2.
  eexists; split; reflexivity.
Qed.
Print Assumptions C19_stmt_partial.

(* D24: no decimal point, SINGLE value: not rounded, marked although 3 fits
   ("###" with 2.75: "%2.75", not "  3") *)
Theorem C19_num_field_refuted_no_point :
  exists fmt v t1 t2, using_format fmt [v] = UOk t1 /\ using_spec fmt [v] = Some t2 /\ t1 <> t2.
Proof.
  exists [35; 35; 35], (UFlt (FFin false 11 (-2))), [37; 50; 46; 55; 53], [32; 32; 51].
  vm_compute. repeat split; discriminate.
Qed.
Print Assumptions C19_num_field_refuted_no_point.

(* D24: "##.##-" with -1.5: the trailing sign is counted as a decimal: "1.500-" *)
Theorem C19_num_field_refuted_trailing_sign :
  using_format [35; 35; 46; 35; 35; 45] [UFlt (FFin true 3 (-1))] = UOk [49; 46; 53; 48; 48; 45] /\
  using_spec [35; 35; 46; 35; 35; 45] [UFlt (FFin true 3 (-1))] = Some [32; 49; 46; 53; 48; 45].
Proof. vm_compute. split; reflexivity. Qed.
Print Assumptions C19_num_field_refuted_trailing_sign.

(* "#.#," with 0.125: the comma after the point is counted as a decimal: "0.12" *)
Theorem C19_num_field_refuted_comma_after_point :
  using_format [35; 46; 35; 44] [UFlt (FFin false 1 (-3))] = UOk [48; 46; 49; 50] /\
  using_spec [35; 46; 35; 44] [UFlt (FFin false 1 (-3))] = Some [32; 48; 46; 49].
Proof. vm_compute. split; reflexivity. Qed.
Print Assumptions C19_num_field_refuted_comma_after_point.

(* "#." with 2.5: the decimal point is not printed: " 2" instead of "2." *)
Theorem C19_num_field_refuted_point_dropped :
  using_format [35; 46] [UFlt (FFin false 5 (-1))] = UOk [32; 50] /\
  using_spec [35; 46] [UFlt (FFin false 5 (-1))] = Some [50; 46].
Proof. vm_compute. split; reflexivity. Qed.
Print Assumptions C19_num_field_refuted_point_dropped.

(* "##+" with 55: fits, but printed as "% 55+";  "##-" with 55: " 55" not "55 " *)
Theorem C19_num_field_refuted_trailing_sign_nonneg :
  using_format [35; 35; 43] [UInt 55] = UOk [37; 32; 53; 53; 43] /\
  using_spec [35; 35; 43] [UInt 55] = Some [53; 53; 43] /\
  using_format [35; 35; 45] [UInt 55] = UOk [32; 53; 53] /\
  using_spec [35; 35; 45] [UInt 55] = Some [53; 53; 32].
Proof. vm_compute. repeat split; reflexivity. Qed.
Print Assumptions C19_num_field_refuted_trailing_sign_nonneg.

(* D16: host exceptions: "!" with "", trailing "_", too many values, too few
   values, a number for "&", a string for "#", and PRINT USING "x"; without
   any value (printables[-1] on the empty list) *)
Theorem C19_render_total_refuted :
  using_format [33] [UStr []] = UCrash UIndexError /\
  using_format [97; 95] [] = UCrash UIndexError /\
  using_format [35] [UInt 7; UInt 0] = UCrash URuntimeError /\
  using_format [35; 32; 35] [UInt 7] = UCrash UIndexError /\
  using_format [38] [UInt 7] = UCrash URuntimeError /\
  using_format [35] [UStr [97]] = UCrash UTypeError /\
  exec_print (encoded_args (Some (CStr [120])) []) = OutCrash PIndexError.
Proof. vm_compute. repeat split; reflexivity. Qed.
Print Assumptions C19_render_total_refuted.

(* PRINT USING "total: #,###.## &!"; 1234.565#; "units"; "x"  (inside the guard) *)
Example C19_example :
  let fmt := [116; 111; 116; 97; 108; 58; 32; 35; 44; 35; 35; 35; 46; 35; 35; 32; 38; 33] in
  let v := UFlt (fl_of_bits 4653144489737332982) in      (* 1234.565 *)
  using_guard fmt [v; UStr [117; 110; 105; 116; 115]; UStr [120]] = true /\
  using_format fmt [v; UStr [117; 110; 105; 116; 115]; UStr [120]]
  = UOk [116; 111; 116; 97; 108; 58; 32; 49; 44; 50; 51; 52; 46; 53; 55; 32;
         117; 110; 105; 116; 115; 120].
Proof. vm_compute. split; reflexivity. Qed.

(* ties go to the even digit on the exact value: 0.125 -> "0.12", 2.5 -> "2." *)
Example C19_example_ties :
  spec_field 4 {| o_sign := None; o_comma := false; o_decpt := Some 2; o_real := 3; o_frac := 2 |}
             (UFlt (FFin false 1 (-3))) = Some [48; 46; 49; 50] /\
  field_guard 4 {| o_sign := None; o_comma := false; o_decpt := Some 2; o_real := 3; o_frac := 2 |}
             (UFlt (FFin false 1 (-3))) = true.
Proof. vm_compute. split; reflexivity. Qed.

(* overflow: 1234567 in "#,###.##" is widened and marked *)
Example C19_example_overflow :
  using_format [35; 44; 35; 35; 35; 46; 35; 35] [UInt 1234567]
  = UOk [37; 49; 44; 50; 51; 52; 44; 53; 54; 55; 46; 48; 48] /\
  using_guard [35; 44; 35; 35; 35; 46; 35; 35] [UInt 1234567] = true.
Proof. vm_compute. split; reflexivity. Qed.
