(* C02 (peephole half) - the peephole pass never changes behaviour.
   Statements, each proved by [exact], by a line or two from a theorem of
   Proofs/PeepholeProofs.v, or (witnesses) by evaluation; Print Assumptions.
   Model: Models/Peephole.v
   (QvmCode.optimize as an index-walking loop on explicit fuel, with the
   compile-time evaluators it calls).  Proofs: Proofs/PeepholeProofs.v.
   The constant-folder half of C02 is Props/C02_fold_part.v; Props/C02.v
   builds both. *)
From Coq Require Import ZArith List Bool Lia Relations.
From QV Require Import Sx Strs Fl Cell Machine Cpu Peephole PeepholeProofs.
Import ListNotations.
Open Scope Z_scope.

(* every result of the loop - for every fuel and every list - is reached from
   the input by finitely many applications of the seven rewrites
   (push+conv, read/store, push+unary, push+push+binary, jump+jump, push%+jz,
   after-halt) to windows of the list *)
Theorem C02_peep_optimize_steps : forall fuel l,
  clos_refl_trans (list pins) (rewrites conv_fold fold1 fold2) l (optimize fuel l).
Proof. intros. apply opt_loop_steps. Qed.
Print Assumptions C02_peep_optimize_steps.

(* no window of a rewrite contains a pseudo-instruction (label, debug marker):
   no rule ever fires across a label *)
Theorem C02_peep_window_no_mark : forall l l', rewrites conv_fold fold1 fold2 l l' ->
  exists pre w w' post, l = pre ++ w ++ post /\ l' = pre ++ w' ++ post /\
    forallb (fun p => negb (is_mark p)) w = true /\ forallb (fun p => negb (is_mark p)) w' = true.
Proof.
  intros l l' (pre & w & w' & post & Hl & Hl' & H). exists pre, w, w', post.
  repeat split; auto; apply (rw1_no_mark _ _ _ _ _ H).
Qed.
Print Assumptions C02_peep_window_no_mark.

(* the loop terminates: 3 * length - index decreases in every iteration, so
   the fuel 3 * length + 3 used by the extracted model is never exhausted *)
Theorem C02_peep_optimize_terminates : forall l, snd (optimize_st (opt_fuel l) l) <> OFuel.
Proof. intros l. apply opt_loop_terminates; unfold lenZ, opt_fuel; lia. Qed.
Print Assumptions C02_peep_optimize_terminates.

(* labels and debug markers survive, in order *)
Theorem C02_peep_keeps_marks : forall fuel l, marks (optimize fuel l) = marks l.
Proof. intros. eapply star_marks, opt_loop_steps. Qed.
Print Assumptions C02_peep_keeps_marks.

(* push<src> v ; conv<src><dst>  =  push<dst> v'   for all 16 type pairs,
   whenever the pass folds (v' = the folded operand) *)
Theorem C02_peep_rule_push_conv_sound : forall m src dst v v' s,
  lit_ok src v -> (dst = 1 \/ dst = 2 \/ dst = 3 \/ dst = 4) ->
  conv_fold dst v = FVal v' ->
  (push src v ;; exec m (IConv src dst)) s = push dst v' s.
Proof.
  intros m src dst v v' s Hl Hd Hf. destruct (lit_ok_boxes _ _ Hl) as (c & Hb & <- & Hn & <-).
  rewrite (push_then _ _ _ _ _ Hb), (exec_conv _ _ _ _ _ _ Hn Hd Hf). now rewrite set_stack_same.
Qed.
Print Assumptions C02_peep_rule_push_conv_sound.

(* the guard "a push! operand is a binary32 value" in lit_ok is necessary *)
Theorem C02_peep_rule_push_conv_refuted_unrounded_single :
  exists v', conv_fold 1 (PFlt f_half_plus) = FVal v' /\
    (exec pm0 (IPushS (asm_single f_half_plus)) ;; exec pm0 (IConv 3 1)) ps0 <> push 1 v' ps0.
Proof. exists (PInt 1). split; [reflexivity|]. vm_compute. discriminate. Qed.
Print Assumptions C02_peep_rule_push_conv_refuted_unrounded_single.

(* push% 0 ; jz L  =  jmp L        push% n ; jz L  =  nothing  (n <> 0) *)
Theorem C02_peep_rule_push_jz_sound : forall m t s,
  (push 1 (PInt 0) ;; exec m (IJz t)) s = exec m (IJmp t) s /\
  (forall n, in_int n = true -> n <> 0 -> (push 1 (PInt n) ;; exec m (IJz t)) s = ret tt s).
Proof.
  intros m t s. split; [exact (push_jz m t 0 s eq_refl)|].
  intros n Hn Hz. rewrite (push_jz m t n s Hn). now destruct (Z.eqb_spec n 0).
Qed.
Print Assumptions C02_peep_rule_push_jz_sound.

(* read<X> v ; store<X> v : stack and every cell unchanged, except that an
   unset cell now holds the default the read materialised ... *)
Theorem C02_peep_rule_read_store_sound : forall m loc ty i s oc,
  ty <> 7 -> read_var loc i s = R oc s ->
  (exec m (IRead loc ty i) ;; exec m (IStore loc i)) s =
  match oc with
  | Some _ => R tt s
  | None => write_var loc i (default_cell ty) s
  end.
Proof. exact rule_read_store_sound. Qed.
Print Assumptions C02_peep_rule_read_store_sound.

(* ... which no later read of that variable can observe *)
Theorem C02_peep_read_after_materialise : forall m loc ty i s s',
  ty <> 7 -> read_var loc i s = R None s ->
  write_var loc i (default_cell ty) s = R tt s' ->
  exec m (IRead loc ty i) s' = exec m (IRead loc ty i) s.
Proof.
  intros m loc ty i s s' Hty Hr Hw. rewrite !exec_read by exact Hty.
  unfold bind. now rewrite Hr, Hw, (write_then_read _ _ _ _ _ Hw).
Qed.
Print Assumptions C02_peep_read_after_materialise.

(* push ; not/neg on INTEGER and LONG operands.
   Full statement (false on the unchanged tree): for every type and operand.
   Missing: negation of the most negative value (clamped instead of trapping),
   every SINGLE/DOUBLE operand outside the LONG range (clamped), NOT of a
   float (folded instead of TYPE_MISMATCH): see the _refuted theorems. *)
Theorem C02_peep_rule_push_unary_sound_partial : forall m o tc z v' s,
  (tc = 1 /\ in_int z = true) \/ (tc = 2 /\ in_long z = true) ->
  (o = UNeg -> z <> (if tc =? 1 then -32768 else -2147483648)) ->
  fold1 o tc (PInt z) = FVal v' ->
  (push tc (PInt z) ;; exec m (un_instr o)) s = push tc v' s.
Proof. exact rule_push_unary_sound_partial. Qed.
Print Assumptions C02_peep_rule_push_unary_sound_partial.

(* push% -32768; neg: traps at run time (INVALID_CELL_VALUE), folded to push% -32768 *)
Theorem C02_peep_rule_push_unary_refuted_int_min :
  exists v', fold1 UNeg 1 (PInt (-32768)) = FVal v' /\
    (push 1 (PInt (-32768)) ;; exec pm0 INeg) ps0 <> push 1 v' ps0.
Proof. exists (PInt (-32768)). split; [reflexivity|]. vm_compute. discriminate. Qed.
Print Assumptions C02_peep_rule_push_unary_refuted_int_min.

Theorem C02_peep_rule_push_unary_refuted_long_min :
  exists v', fold1 UNeg 2 (PInt (-2147483648)) = FVal v' /\
    (push 2 (PInt (-2147483648)) ;; exec pm0 INeg) ps0 <> push 2 v' ps0.
Proof. exists (PInt (-2147483648)). split; [reflexivity|]. vm_compute. discriminate. Qed.
Print Assumptions C02_peep_rule_push_unary_refuted_long_min.

(* push! 2^35; neg: the machine pushes -2^35, the fold clamps to -2^31 (D04/D33) *)
Theorem C02_peep_rule_push_unary_refuted_float_clamp :
  exists v', fold1 UNeg 3 (PFlt (FFin false 1 35)) = FVal v' /\
    (push 3 (PFlt (FFin false 1 35)) ;; exec pm0 INeg) ps0 <> push 3 v' ps0.
Proof. exists (PInt (-2147483648)). split; [reflexivity|]. vm_compute. discriminate. Qed.
Print Assumptions C02_peep_rule_push_unary_refuted_float_clamp.

(* push! 1.5; not: TYPE_MISMATCH at run time, folded to push! -3 *)
Theorem C02_peep_rule_push_unary_refuted_float_not :
  exists v', fold1 UNot 3 (PFlt (FFin false 3 (-1))) = FVal v' /\
    (push 3 (PFlt (FFin false 3 (-1))) ;; exec pm0 INot) ps0 <> push 3 v' ps0.
Proof. exists (PInt (-3)). split; [reflexivity|]. vm_compute. discriminate. Qed.
Print Assumptions C02_peep_rule_push_unary_refuted_float_not.

(* push ; push ; op on INTEGER operands, every operator except "/".
   Full statement (false on the unchanged tree): every type and operator.
   Missing: "/" on integral operands (result typed as the operand), LONG
   results beyond 32 bits (limit() uses the 64-bit c_long), float operands
   (result not rounded to the operand type; logical ops / MOD folded although
   they trap at run time). *)
Theorem C02_peep_rule_push_binary_sound_partial : forall m o a b v' s,
  in_int a = true -> in_int b = true -> o <> BDiv ->
  fold2 o 1 (PInt a) (PInt b) = FVal v' ->
  (push 1 (PInt a) ;; push 1 (PInt b) ;; exec m (bin_instr o)) s = push 1 v' s.
Proof. intros. apply (rule_push_binary_integral m o 1 CI); auto using boxes_int. Qed.
Print Assumptions C02_peep_rule_push_binary_sound_partial.

Theorem C02_peep_rule_push_binary_long_sound_partial : forall m o a b z s,
  in_long a = true -> in_long b = true -> o <> BDiv ->
  fold2 o 2 (PInt a) (PInt b) = FVal (PInt z) -> in_long z = true ->
  (push 2 (PInt a) ;; push 2 (PInt b) ;; exec m (bin_instr o)) s = push 2 (PInt z) s.
Proof. intros. apply (rule_push_binary_integral m o 2 CL); auto using boxes_long. Qed.
Print Assumptions C02_peep_rule_push_binary_long_sound_partial.

(* LONG overflow (D02): 2000000000 + 2000000000 traps at run time; the pass
   folds it to a push& whose operand no push& instruction can encode *)
Theorem C02_peep_rule_push_binary_refuted_long_range :
  exists z, fold2 BAdd 2 (PInt 2000000000) (PInt 2000000000) = FVal (PInt z) /\ in_long z = false.
Proof. exists 4000000000. split; reflexivity. Qed.
Print Assumptions C02_peep_rule_push_binary_refuted_long_range.

(* INTEGER "/": 1 / 2 is the SINGLE 0.5 at run time, folded to push% 0.5 (an INTEGER 0) *)
Theorem C02_peep_rule_push_binary_refuted_int_div :
  exists v', fold2 BDiv 1 (PInt 1) (PInt 2) = FVal v' /\
    (push 1 (PInt 1) ;; push 1 (PInt 2) ;; exec pm0 IDiv) ps0 <> push 1 v' ps0.
Proof. exists (PFlt (FFin false 1 (-1))). split; [reflexivity|]. vm_compute. discriminate. Qed.
Print Assumptions C02_peep_rule_push_binary_refuted_int_div.

(* jump+jump and after-halt delete an instruction that cannot execute:
   (1) jmp/ijmp/ret/retv never fall through: the state they leave does not
       depend on the pc they were entered with;
   (2) halt stops the machine;
   (3) the deleted instruction does not start at the address of any label
       (no PMark inside the window, instructions have positive size). *)
Theorem C02_peep_rule_jmp_jmp : forall m j s p r,
  jump_like j -> exec m j (set_pc s p) = R tt r -> exec m j s = R tt r.
Proof. intros m j s p r Hj. apply (jump_pc_free m j Hj). Qed.
Print Assumptions C02_peep_rule_jmp_jmp.

Theorem C02_peep_rule_after_halt : forall m s,
  exists s', exec m IHalt s = R tt s' /\ halted s' = true /\
    forall fuel t, run m fuel s' t = (s', (match fuel with O => StFuel | _ => StHalt end), t).
Proof.
  intros m s. eexists. split; [reflexivity|]. split; [reflexivity|].
  intros fuel t. destruct fuel; reflexivity.
Qed.
Print Assumptions C02_peep_rule_after_halt.

Theorem C02_peep_dead_instruction_not_a_target : forall size routine_of,
  (forall p, is_mark p = false -> 0 < size p) ->
  forall pre j x post id a,
  is_mark j = false -> is_mark x = false ->
  In (id, a) (a_labels (asm size routine_of (pre ++ j :: x :: post))) ->
  a <> a_len (asm size routine_of (pre ++ [j])).
Proof. exact dead_instruction_not_a_target. Qed.
Print Assumptions C02_peep_dead_instruction_not_a_target.

(* non-vacuity: push! 2.5; conv!%; push% 3; add; jmp 7; jmp 8; label; push% 0; jz 7; halt; push% 1 *)
Example C02_peep_example :
  optimize_st 50
    [PPush 3 (PFlt (FFin false 5 (-1))); PConv 3 1; PPush 1 (PInt 3); PBin BAdd;
     PJmp 7; PJmp 8; PMark MLabel 9; PPush 1 (PInt 0); PJz 7; PHalt; PPush 1 (PInt 1)]
  = ([PPush 1 (PInt 5); PJmp 7; PMark MLabel 9; PJmp 7; PHalt], ODone).
Proof. vm_compute. reflexivity. Qed.
