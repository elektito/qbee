(* C15 - DATA items are read in source order and RESTORE repositions exactly.
   Known defects of the unchanged tree show as _partial (guarded) + _refuted. *)
From Coq Require Import ZArith List Bool.
From QV Require Import Sx Strs Fl NumFmt Cell DataText DataDev DataSpec DataProofs DataWitness.
Import ListNotations.
Open Scope Z_scope.

(* plain_text t: t contains no white-space character other than blank and TAB.  The
   property quantifies over letters, digits, blanks, commas, quotes, colons, all of
   which are plain; outside it str.strip() also removes \v \f \r \x1c-\x1f \x85 \xa0
   (C15_exotic_whitespace_example). *)

(* items separated at commas outside quotes, unquoted trimmed, quoted verbatim, empty
   items Empty: every rendering of every well-formed field list is parsed back *)
Theorem C15_data_render_parse : forall fs,
  fields_ok fs = true -> plain_text (render fs) = true ->
  parse_data (render fs) = Some (map item_of fs).
Proof. exact data_render_parse. Qed.
Print Assumptions C15_data_render_parse.

(* conversely every accepted text is such a rendering *)
Theorem C15_data_parse_render : forall t items,
  plain_text t = true -> parse_data t = Some items -> data_items_spec t items.
Proof. exact data_parse_render. Qed.
Print Assumptions C15_data_parse_render.

Theorem C15_data_items_spec : forall t items,
  plain_text t = true -> (parse_data t = Some items <-> data_items_spec t items).
Proof.
  intros t items Hpl. split; [now apply data_parse_render|].
  intros [fs [H1 [<- <-]]]. now apply data_render_parse.
Qed.
Print Assumptions C15_data_items_spec.

(* the syntax error case is exactly "not generated by the item grammar" *)
Theorem C15_data_rejected_iff : forall t,
  plain_text t = true -> (parse_data t = None <-> forall items, ~ data_items_spec t items).
Proof.
  intros t Hpl. split.
  - intros E items H. apply C15_data_items_spec in H; [congruence | exact Hpl].
  - intro Hn. destruct (parse_data t) as [items|] eqn:E; [|reflexivity].
    elim (Hn items). now apply C15_data_items_spec.
Qed.
Print Assumptions C15_data_rejected_iff.

(* a DATA statement always carries at least one item: no data part is empty *)
Theorem C15_data_never_empty_list : forall t items, parse_data t = Some items -> items <> [].
Proof.
  intros t items H. destruct (parse_fields t items H) as [fs [Hok <-]].
  rewrite (render_parse_code fs Hok) in H. injection H as <-.
  destruct fs; [discriminate Hok | discriminate].
Qed.
Print Assumptions C15_data_never_empty_list.

Theorem C15_exotic_whitespace_example :
  plain_text [11] = false /\ parse_data [11] = Some [DItem []].
Proof. split; vm_compute; reflexivity. Qed.
Print Assumptions C15_exotic_whitespace_example.

Theorem C15_extent_split : forall s m,
  let '(t, r, _) := extent m s in
  t ++ r = s /\ (r = [] \/ exists r', r = ch_colon :: r').
Proof. exact extent_split. Qed.
Print Assumptions C15_extent_split.

(* D44: the grammar rule data_stmt (tokens re-joined with blanks) against the
   specification.  Refuted by a quote inside an unquoted item and by a lone opening
   quote; outside these two classes the model of the rule agrees with the
   specification on every text over {a 1 blank , quote :} up to length 5 (finite
   sweep by vm_compute; beyond that only the correspondence check speaks). *)
Theorem C15_grammar_rejoin_refuted :
  exists t, ds_supported t = true /\
    data_stmt t = (Some [DItem [97; 32; 34; 98]], []) /\
    ss_items (stmt_of_line t) = Some [DItem [97; 34; 98]] /\
    ss_rest (stmt_of_line t) = [] /\ ss_inner_quote (stmt_of_line t) = true.
Proof. exists [97; 34; 98]. repeat split; vm_compute; reflexivity. Qed.
Print Assumptions C15_grammar_rejoin_refuted.

Theorem C15_grammar_lone_quote_refuted :
  data_stmt [ch_quote] = (Some [DEmpty], [ch_quote]) /\
  ss_items (stmt_of_line [ch_quote]) = Some [DItem []] /\
  ss_rest (stmt_of_line [ch_quote]) = [] /\ ss_lone_quote (stmt_of_line [ch_quote]) = true.
Proof. repeat split; vm_compute; reflexivity. Qed.
Print Assumptions C15_grammar_lone_quote_refuted.

Theorem C15_data_stmt_matches_spec_upto5_partial : forall t,
  In t (strs_upto c15_alphabet 5) -> ds_check t = true.
Proof. exact data_stmt_matches_spec_upto5. Qed.
Print Assumptions C15_data_stmt_matches_spec_upto5_partial.

(* for every data section with non-empty parts and every sequence of READs the device
   delivers what the flat list concat d delivers (spec_run on map EData d): the k-th
   READ returns convert ty (nth k (concat d)), it stops with a run-time error where
   the flat list does *)
Theorem C15_read_in_source_order : forall d tys,
  parts_nonempty d = true -> ops_typed (map ORead tys) = true ->
  exists e', abstract_ending (snd (run_ops d cur_init (map DRead tys))) = Some e' /\
    spec_run (map EData d) 0 (map ORead tys) = (fst (run_ops d cur_init (map DRead tys)), e').
Proof. exact read_in_source_order. Qed.
Print Assumptions C15_read_in_source_order.

(* the k-th READ returns the k-th item of concat d converted to the requested type (the
   k items before it read as strings); a failing conversion is the trap *)
Theorem C15_kth_read : forall d k ty it,
  parts_nonempty d = true -> nth_error (concat d) k = Some it ->
  run_ops d cur_init (map DRead (repeat 5 k ++ [ty]))
  = match convert ty it with
    | RVal c => (map str_cell (firstn k (concat d)) ++ [c], EDone)
    | r => (map str_cell (firstn k (concat d)), ETrap r)
    end.
Proof.
  intros d k ty it Hne Hn. destruct (nth_error_split _ _ Hn) as [pre [post [E <-]]].
  rewrite E, firstn_app, Nat.sub_diag, firstn_all, app_nil_r.
  now apply (reads_from_start d ty pre (it :: post)).
Qed.
Print Assumptions C15_kth_read.

(* reading everything as strings gives all items in order; the next READ (any type)
   is DEVICE_ERROR / out of data *)
Theorem C15_read_all_then_out_of_data : forall d ty,
  parts_nonempty d = true ->
  run_ops d cur_init (map DRead (repeat 5 (length (concat d)) ++ [ty]))
  = (map str_cell (concat d), ETrap (RDevErr 4)).
Proof.
  intros d ty Hne. exact (reads_from_start d ty (concat d) [] Hne (eq_sym (app_nil_r _))).
Qed.
Print Assumptions C15_read_all_then_out_of_data.

Theorem C15_empty_item_reads_zero :
  convert 1 DEmpty = RVal (CI 0) /\ convert 2 DEmpty = RVal (CL 0) /\
  convert 3 DEmpty = RVal (CS (fzero false)) /\ convert 4 DEmpty = RVal (CD (fzero false)) /\
  convert 5 DEmpty = RVal (CStr []).
Proof. repeat split. Qed.
Print Assumptions C15_empty_item_reads_zero.

(* text into a numeric variable is DEVICE_ERROR (BAD_ARG_TYPE) *)
Theorem C15_text_into_numeric_is_error : forall s,
  (py_int s = None -> convert 1 (DItem s) = RDevErr 2 /\ convert 2 (DItem s) = RDevErr 2) /\
  (py_float s = None -> convert 3 (DItem s) = RDevErr 2 /\ convert 4 (DItem s) = RDevErr 2).
Proof. split; intro H; unfold convert; rewrite H; split; reflexivity. Qed.
Print Assumptions C15_text_into_numeric_is_error.

Theorem C15_string_read_verbatim : forall s, convert 5 (DItem s) = RVal (CStr s).
Proof. reflexivity. Qed.
Print Assumptions C15_string_read_verbatim.

(* wherever labels, SUB-local labels and DATA statements sit: the data section,
   flattened, is all DATA items in source order *)
Theorem C15_parts_are_source_order : forall evs,
  has_dup (labels_of evs) = false -> concat (parts_of (group evs)) = all_items evs.
Proof. exact parts_are_source_order. Qed.
Print Assumptions C15_parts_are_source_order.

(* RESTORE label, full statement: for every module-level label l, RESTORE l continues
   with the item at position label_pos l.  The code supports it exactly when a DATA
   statement follows l directly (label_has_data): then the pushed part index exists and
   the items from that part on are the items from label_pos l on. *)
Theorem C15_restore_label_partial : forall evs l,
  has_dup (labels_of evs) = false -> label_has_data l evs = true ->
  exists k n,
    key_index (group evs) (Some l) 0 = Some (Z.of_nat k) /\
    (k < length (parts_of (group evs)))%nat /\
    label_pos l evs 0 = Some n /\
    skipn n (all_items evs) = concat (skipn k (parts_of (group evs))).
Proof. exact restore_label. Qed.
Print Assumptions C15_restore_label_partial.

(* D12: la: / lb: / DATA 5, RESTORE la : READ -> ValueError in code generation *)
Theorem C15_restore_label_refuted :
  exists evs ops,
    prog_valid evs ops = true /\ data_nonempty evs = true /\ ops_typed ops = true /\
    no_bare_restore ops = true /\ targets_own_data evs ops = false /\
    run_prog evs ops = PCompile CValueError /\
    spec_prog evs ops = SRun [CI 5] SDone.
Proof. exists d12_evs, d12_ops. repeat split; vm_compute; reflexivity. Qed.
Print Assumptions C15_restore_label_refuted.

(* whole programs, full statement:
   abstract_pres (run_prog evs ops) = Some (spec_prog evs ops) for every program.
   Proved under: legal program; every DATA has an item and every variable a
   scalar type (always so: C15_data_never_empty_list, type ids 1..5); no RESTORE
   without label (D11); every RESTORE target owns a DATA statement (D12). *)
Theorem C15_program_partial : forall evs ops,
  prog_valid evs ops = true -> data_nonempty evs = true -> ops_typed ops = true ->
  no_bare_restore ops = true -> targets_own_data evs ops = true ->
  abstract_pres (run_prog evs ops) = Some (spec_prog evs ops).
Proof. intros. rewrite run_prog_is. apply program_b; auto. Qed.
Print Assumptions C15_program_partial.

(* D11: DATA 1 / la: / DATA 2, READ : RESTORE : READ delivers 1 2 instead of 1 1 while a
   bare RESTORE pushes -1 (Proofs/DataWitness.v: restore_bare_refuted,
   restore_bare_wraps_refuted); /repo, repaired, pushes part 0, which is gen_ops_fixed *)

(* with fixes/C15-D11.diff (bare RESTORE pushes 0) the guard on RESTORE disappears *)
Theorem C15_program_after_D11_fix_partial : forall evs ops,
  prog_valid evs ops = true -> data_nonempty evs = true -> ops_typed ops = true ->
  targets_own_data evs ops = true ->
  abstract_pres (run_prog_fixed evs ops) = Some (spec_prog evs ops).
Proof. intros. rewrite run_prog_fixed_is. apply program_b; auto. Qed.
Print Assumptions C15_program_after_D11_fix_partial.

(* DATA  12 , "a,b",,x   ->  12 | a,b | Empty | x *)
Example C15_example_text :
  parse_data [32; 49; 50; 32; 44; 32; 34; 97; 44; 98; 34; 44; 44; 120]
  = Some [DItem [49; 50]; DItem [97; 44; 98]; DEmpty; DItem [120]].
Proof. vm_compute. reflexivity. Qed.

(* DATA 1,2 / la: DATA 3 / SUB with label lb / DATA x
   READ a% : READ b& : RESTORE la : READ c$ : READ d$ : READ e%  (out of data) *)
Example C15_example_program :
  let evs := [EData [it 1; it 2]; ELabel lbl_a; EData [it 3]; ESubLabel lbl_b; EData [DItem [120]]] in
  let ops := [ORead 1; ORead 2; ORestore (Some lbl_a); ORead 5; ORead 5; ORead 1] in
  run_prog evs ops = PRun [CI 1; CL 2; CStr [51]; CStr [120]] (ETrap (RDevErr 4)) /\
  spec_prog evs ops = SRun [CI 1; CL 2; CStr [51]; CStr [120]] SRuntimeError /\
  targets_own_data evs ops = true.
Proof. vm_compute. repeat split. Qed.
