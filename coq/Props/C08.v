(* C08 - debug information does not change what a program does.
   Statements, each proved by [exact] or by a line or two from a theorem of
   Proofs/PeepholeProofs.v; Print Assumptions.  Model: Models/Peephole.v
   (instruction lists with pseudo-instructions PMark for labels and for the
   debug markers _dbg_info_start/_end/_empty_block; optimize; the offset and
   label computation of the assembler).  Proofs: Proofs/PeepholeProofs.v.

   The code generator emits, with debug info, the same list plus debug markers
   (checked on the real artefacts: erase_marks (instrs -g) = instrs, levels 0
   and 1).  What is proved here is that the two later stages cannot turn the
   markers into a behavioural difference. *)
From Coq Require Import ZArith List Bool Relations.
From QV Require Import Sx Strs Fl Cell Machine Cpu Peephole PeepholeProofs.
Import ListNotations.
Open Scope Z_scope.

(* the assembler: offsets of all emitted instructions, the routine they are
   resolved in, every label address and the code length are the same whether
   or not the list carries debug markers *)
Theorem C08_assemble_ignores_marks : forall size routine_of l off cur,
  asm_go size routine_of (erase_marks l) off cur = asm_go size routine_of l off cur.
Proof. exact assemble_ignores_marks. Qed.
Print Assumptions C08_assemble_ignores_marks.

(* the peephole pass at level 2: markers may change which windows are
   adjacent, but the code optimised without markers and the marker-free part
   of the code optimised with markers are BOTH obtained from the same
   unoptimised marker-free code by the rewrites of C02 (each shown there sound
   on every machine state or refuted by a witness; none across a label) *)
Theorem C08_markers_only_block_rules : forall fuel fuel' l,
  clos_refl_trans (list pins) (rewrites conv_fold fold1 fold2)
                  (erase_marks l) (optimize fuel (erase_marks l)) /\
  clos_refl_trans (list pins) (rewrites conv_fold fold1 fold2)
                  (erase_marks l) (erase_marks (optimize fuel' l)).
Proof. intros. split; [|apply star_erase]; apply opt_loop_steps. Qed.
Print Assumptions C08_markers_only_block_rules.

(* hence they are rewrite-equivalent to each other *)
Theorem C08_markers_results_equivalent : forall fuel fuel' l,
  clos_refl_sym_trans (list pins) (rewrites conv_fold fold1 fold2)
                      (optimize fuel (erase_marks l)) (erase_marks (optimize fuel' l)).
Proof.
  intros. eapply rst_trans; [apply rst_sym|]; apply clos_rt_clos_rst;
    [|apply star_erase]; apply opt_loop_steps.
Qed.
Print Assumptions C08_markers_results_equivalent.

(* the pass never deletes, moves or duplicates a marker or a label: the debug
   map built by the assembler sees the same marker sequence at every level *)
Theorem C08_optimize_keeps_marks : forall fuel l, marks (optimize fuel l) = marks l.
Proof. intros. eapply star_marks, opt_loop_steps. Qed.
Print Assumptions C08_optimize_keeps_marks.

(* non-vacuity: a marker between two jumps blocks the jump+jump rule, so the
   two code sections differ at level 2 - and both are still rewritings of the
   same list *)
Example C08_example_markers_block_a_window :
  let l := [PJmp 1; PMark MDbgEnd 0; PMark MDbgStart 1; PJmp 2; PMark MLabel 3] in
  erase_marks (optimize 20 l) = [PJmp 1; PJmp 2; PMark MLabel 3] /\
  optimize 20 (erase_marks l) = [PJmp 1; PMark MLabel 3].
Proof. vm_compute. split; reflexivity. Qed.
