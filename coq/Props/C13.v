(* C13 - debugger expression evaluation agrees with the running program.
   Statements, each proved by [exact] or by a line or two from a more general
   theorem of Proofs/DbgEvalProofs.v, the refutations on the concrete stopped
   program of that file by evaluation; Print Assumptions; Examples.
   Models: Models/DbgEval.v ([dbg_print] = the
   evaluation half of Cmd.do_print = QvmEval.eval_lvalue + Expr.eval, faithful
   to /repo), Models/Layout.v (memlayout), Models/Cpu.v (the machine),
   Models/Fold.v (BinaryOp.eval / UnaryOp.eval = the constant folder).

   SPECIFICATION (what the property demands), against which the theorems are
   stated: at a stop point the value shown for an expression is the cell the
   program's own code for that expression pushes ([exec] of IRead / IReadidx /
   IArridx + IDeref on the same state, [rt_eval] for operators); unknown names
   and out-of-range subscripts give DEvalError; nothing is ever DCrash; the
   state is not changed.

   What is proved without restriction: purity; unknown names; scalar
   locals / SHARED globals / parameters; elements of static arrays of every
   rank; record fields along any path; subscripts out of range and wrong rank.  What is proved under a guard
   (_partial): operator expressions (the guard is the folder's: INTEGER
   operands, the 16 operators of FoldProofs.fold_sound_int).  What is refuted
   on the faithful model (_refuted): comparisons of non-integers (D01), crashes
   (D43), STATIC variables, names typed in the main routine while stopped in a
   procedure, evaluation after the main frame has been left, fields/subscripts
   on scalars.  All the scalar/element theorems carry the premise
   [main_type di n = ...]: the type the DEBUGGER assigns to the name (always
   looked up in the main routine) is the declared one - true in the main
   program and for names whose type is given by a suffix, false in general
   inside procedures (C13_typed_in_main_refuted). *)
From Coq Require Import ZArith List Bool.
From QV Require Import Sx Strs Fl Cell Machine Cpu Layout Fold ListIndex LayoutProofs FoldProofs DbgEval DbgEvalProofs.
Import ListNotations.
Open Scope Z_scope.

(* [dbg_print : dbginfo -> st -> dexpr -> dres] returns no state at all; and it
   is a function of the heap and the current-frame register only: two machine
   states with the same memory give the same answer whatever their stack, pc,
   halt/trap registers, devices and output *)
Theorem C13_dbg_eval_pure : forall di s s' e,
  heap s = heap s' -> cur s = cur s' -> dbg_print di s e = dbg_print di s' e.
Proof. exact dbg_print_reads_only. Qed.
Print Assumptions C13_dbg_eval_pure.

Theorem C13_dbg_unknown_name_is_eval_error : forall di s g sg cs n idx path,
  in_frame s g sg cs -> not_const di cs n ->
  has_key (d_globals di) n = false ->
  local_var_idx (d_env di) (r_params (find_routine di cs)) (r_locals (find_routine di cs)) n = None ->
  dbg_print di s (ELv n idx path) = DEvalError.
Proof.
  intros di s g sg cs n idx path Hf Hc Hg Hl.
  rewrite dbg_print_lv, (eval_lvalue_unknown Hf Hc); [reflexivity|].
  unfold eval_var. rewrite Hg, Hl. reflexivity.
Qed.
Print Assumptions C13_dbg_unknown_name_is_eval_error.

(* scalars: same cell as the machine's read instruction, for every
   declaration list (the index is memlayout's on both sides) *)

Theorem C13_dbg_scalar_agrees_local : forall di m s g sg cs n k idx c,
  in_frame s g sg cs -> not_const di cs n ->
  main_type di n = TBuiltin k ->
  has_key (d_globals di) n = false ->
  local_var_idx (d_env di) (r_params (find_routine di cs)) (r_locals (find_routine di cs)) n = Some idx ->
  0 <= idx ->
  nth_error (s_cells sg) (Z.to_nat idx) = Some (Some c) ->
  (cell_ty c =? 7) = false ->
  dbg_print di s (ELv n [] []) = DVal (pv_of c) /\
  exec m (IRead true (cell_ty c) idx) s = R tt (set_stack s (c :: stack s)).
Proof.
  intros di m s g sg cs n k idx c Hf Hc Ht Hg Hl. pose proof Hf as (Hcur & Hg0 & Hs & _).
  exact (scalar_agrees di m s g sg cs n k true g sg idx c Hf Hc Ht (eval_var_local di _ g n idx Hg Hl) Hcur Hg0 Hs).
Qed.
Print Assumptions C13_dbg_scalar_agrees_local.

Theorem C13_dbg_scalar_agrees_shared : forall di m s g sg cs sg0 n k idx c,
  in_frame s g sg cs -> not_const di cs n ->
  main_type di n = TBuiltin k ->
  has_key (d_globals di) n = true ->
  global_var_idx (d_env di) (d_globals di) n = Some idx ->
  0 <= idx ->
  nth_error (heap s) 0 = Some sg0 ->
  nth_error (s_cells sg0) (Z.to_nat idx) = Some (Some c) ->
  (cell_ty c =? 7) = false ->
  dbg_print di s (ELv n [] []) = DVal (pv_of c) /\
  exec m (IRead false (cell_ty c) idx) s = R tt (set_stack s (c :: stack s)).
Proof.
  intros di m s g sg cs sg0 n k idx c Hf Hc Ht Hg Hl Hi Hs0.
  exact (scalar_agrees di m s g sg cs n k false 0 sg0 idx c Hf Hc Ht (eval_var_shared di _ g n idx Hg Hl)
           eq_refl (Z.le_refl 0) Hs0 Hi).
Qed.
Print Assumptions C13_dbg_scalar_agrees_shared.

(* parameters (by reference to a variable / element / field, or by value
   through a frame temporary): one reference is followed, as `read@; deref` *)
Theorem C13_dbg_scalar_agrees_param : forall di m s g sg cs n k idx g1 i1 sg1 c,
  in_frame s g sg cs -> not_const di cs n ->
  main_type di n = TBuiltin k ->
  has_key (d_globals di) n = false ->
  local_var_idx (d_env di) (r_params (find_routine di cs)) (r_locals (find_routine di cs)) n = Some idx ->
  0 <= idx ->
  nth_error (s_cells sg) (Z.to_nat idx) = Some (Some (CRef g1 i1)) ->
  0 <= g1 -> nth_error (heap s) (Z.to_nat g1) = Some sg1 -> 0 <= i1 ->
  nth_error (s_cells sg1) (Z.to_nat i1) = Some (Some c) ->
  (cell_ty c =? 7) = false ->
  dbg_print di s (ELv n [] []) = DVal (pv_of c) /\
  exec m (IRead true 7 idx) s = R tt (set_stack s (CRef g1 i1 :: stack s)) /\
  exec m (IDeref (cell_ty c)) (set_stack s (CRef g1 i1 :: stack s)) = R tt (set_stack s (c :: stack s)).
Proof. intros. eapply param_agrees; [constructor|..]; eassumption. Qed.
Print Assumptions C13_dbg_scalar_agrees_param.

(* array elements: the debugger's nested lists + QArray.at select the
   cell of the machine's row-major arridx, for EVERY rank and shape *)

Theorem C13_dbg_element_agrees : forall di m s g sg cs n bs0 k base es bs idxs cidx c,
  in_frame s g sg cs -> not_const di cs n ->
  main_type di n = TArray bs0 (TBuiltin k) ->
  has_key (d_globals di) n = false ->
  local_var_idx (d_env di) (r_params (find_routine di cs)) (r_locals (find_routine di cs)) n = Some base ->
  0 <= base ->
  nth_error (s_cells sg) (Z.to_nat base) = Some None ->
  has_header (s_cells sg) base es bs -> bs <> [] ->
  Forall (fun b => fst b <= snd b) bs -> 0 < es ->
  base + header_size bs + array_cells es bs <= Z.of_nat (length (s_cells sg)) ->
  elem_index base es bs idxs = Some cidx ->
  nth_error (s_cells sg) (Z.to_nat cidx) = Some (Some c) ->
  (cell_ty c =? 7) = false ->
  dbg_print di s (ELv n (map ilit idxs) []) = DVal (pv_of c) /\
  forall s1 rest, heap s1 = heap s -> stack s1 = CRef g base :: map CL (rev idxs) ++ rest ->
    exec m (IArridx (rank bs)) s1 = R tt (set_stack s1 (CRef g cidx :: rest)) /\
    exec m (IDeref (cell_ty c)) (set_stack s1 (CRef g cidx :: rest)) = R tt (set_stack s1 (c :: rest)).
Proof. intros. eapply element_agrees_in_segment; [constructor|..]; eassumption. Qed.
Print Assumptions C13_dbg_element_agrees.

(* the core of it: indexing the nested lists = reading at the row-major offset *)
Theorem C13_dbg_nested_lists_are_row_major : forall leaf es bs base t idxs n,
  bs <> [] ->
  read_sub leaf es bs base = Ok t ->
  elem_number bs idxs = Some n ->
  exists x, leaf (base + n * es) = Ok x /\ arr_at t idxs bs = Ok x.
Proof.
  intros leaf es bs base t idxs n Hne Hr En.
  pose proof (arr_at_read_sub idxs Hne Hr (elem_number_length _ _ _ En)) as H.
  rewrite En in H. exact H.
Qed.
Print Assumptions C13_dbg_nested_lists_are_row_major.

(* a never-assigned element reads as 0 / "" on both sides *)
Theorem C13_dbg_element_unset_default : forall di s g sg cs n bs0 k base es bs idxs cidx t,
  in_frame s g sg cs -> not_const di cs n ->
  main_type di n = TArray bs0 (TBuiltin k) ->
  has_key (d_globals di) n = false ->
  local_var_idx (d_env di) (r_params (find_routine di cs)) (r_locals (find_routine di cs)) n = Some base ->
  0 <= base ->
  nth_error (s_cells sg) (Z.to_nat base) = Some None ->
  has_header (s_cells sg) base es bs -> bs <> [] ->
  Forall (fun b => fst b <= snd b) bs -> 0 < es ->
  read_sub (cell_leaf (heap s) g) es bs (base + header_size bs) = Ok t ->
  elem_index base es bs idxs = Some cidx ->
  nth_error (s_cells sg) (Z.to_nat cidx) = Some None ->
  1 <= k <= 5 ->
  dbg_print di s (ELv n (map ilit idxs) []) = DVal (pv_of (default_cell k)).
Proof.
  intros di s g sg cs n bs0 k base es bs idxs cidx t Hf Hc Ht Hg Hl Hb Hres Hh Hne Hbs Hes Hrd Hei Hcell Hk.
  rewrite (element_value (local_var_intro Hf Hc Ht Hg Hl Hb Hres) Hh Hne Hrd idxs cidx None) by assumption.
  apply default_print, Hk.
Qed.
Print Assumptions C13_dbg_element_unset_default.

(* record fields: read_struct + get_field return the cell at
   base + get_dotted_index, i.e. the operand of the program's readidx,
   for every record environment and every path (any nesting) *)

Theorem C13_dbg_field_agrees : forall di m s g sg cs n rn base path off ft c0 c v,
  in_frame s g sg cs -> not_const di cs n ->
  main_type di n = TRecord rn ->
  has_key (d_globals di) n = false ->
  local_var_idx (d_env di) (r_params (find_routine di cs)) (r_locals (find_routine di cs)) n = Some base ->
  0 <= base ->
  nth_error (s_cells sg) (Z.to_nat base) = Some c0 ->
  (forall g1 i1, c0 <> Some (CRef g1 i1)) ->
  read_struct (heap s) (d_env di) rn g base = Ok v ->
  path <> [] ->
  dotted_index (d_env di) (TRecord rn) path = Some off ->
  dotted_type (d_env di) (TRecord rn) path = Some ft ->
  (forall m0, ft <> TRecord m0) ->
  0 <= base + off ->
  nth_error (s_cells sg) (Z.to_nat (base + off)) = Some (Some c) ->
  (cell_ty c =? 7) = false ->
  dbg_print di s (ELv n [] path) = DVal (pv_of c) /\
  exec m (IReadidx true (cell_ty c) base off) s = R tt (set_stack s (c :: stack s)).
Proof. intros. eapply field_agrees; [constructor|..]; eassumption. Qed.
Print Assumptions C13_dbg_field_agrees.

Theorem C13_dbg_record_path_is_dotted_index : forall h g env n base v,
  read_struct h env n g base = Ok v ->
  forall path off ft, path <> [] ->
  dotted_index env (TRecord n) path = Some off ->
  dotted_type env (TRecord n) path = Some ft ->
  (forall m, ft <> TRecord m) ->
  exists c, get_cell h g (base + off) = Ok c /\ get_field v path = Ok (cell_or_default ft c).
Proof.
  intros h g env n base v Hr path off ft _.
  exact (field_val_path h g path env (TRecord n) base v Hr off ft).
Qed.
Print Assumptions C13_dbg_record_path_is_dotted_index.

(* subscripts out of range, or the wrong number of subscripts *)

Theorem C13_dbg_out_of_range_is_eval_error : forall di s g sg cs n bs0 k base es bs idxs t,
  in_frame s g sg cs -> not_const di cs n ->
  main_type di n = TArray bs0 (TBuiltin k) ->
  has_key (d_globals di) n = false ->
  local_var_idx (d_env di) (r_params (find_routine di cs)) (r_locals (find_routine di cs)) n = Some base ->
  0 <= base ->
  nth_error (s_cells sg) (Z.to_nat base) = Some None ->
  has_header (s_cells sg) base es bs -> bs <> [] ->
  read_sub (cell_leaf (heap s) g) es bs (base + header_size bs) = Ok t ->
  idxs <> [] ->
  elem_number bs idxs = None ->
  dbg_print di s (ELv n (map ilit idxs) []) = DEvalError.
Proof.
  intros di s g sg cs n bs0 k base es bs idxs t Hf Hc Ht Hg Hl Hb Hres Hh Hne Hrd Hidx En.
  rewrite (element_print (local_var_intro Hf Hc Ht Hg Hl Hb Hres) Hh Hne Hrd) by assumption.
  unfold elem_index. rewrite En. reflexivity.
Qed.
Print Assumptions C13_dbg_out_of_range_is_eval_error.

(* over numeric leaves holding a value of their static type the debugger IS
   the constant folder applied to the values read (every operator, any nesting) *)
Theorem C13_dbg_expr_is_fold : forall di s rho e,
  num_expr di s rho e -> dbg_print di s e = dres_of (XF (fold_eval (to_c rho e))).
Proof. exact dbg_print_is_fold. Qed.
Print Assumptions C13_dbg_expr_is_fold.

(* guard = FoldProofs.fold_sound_int: two INTEGER variables, the 16 operators
   + - * \ MOD AND OR XOR EQV IMP = <> < > <= >=.  MISSING for the full
   statement: LONG arithmetic that overflows (D02), every float operand
   (D01, SINGLE rounding), strings (D03), / and ^ : see the _refuted
   theorems here and in Props/C02 *)
Theorem C13_dbg_expr_agrees_partial : forall di m s g sg cs rho x y ix iy op a b,
  In op int_ops ->
  in_frame s g sg cs -> not_const di cs x -> not_const di cs y ->
  main_type di x = TBuiltin 1 -> main_type di y = TBuiltin 1 ->
  has_key (d_globals di) x = false -> has_key (d_globals di) y = false ->
  local_var_idx (d_env di) (r_params (find_routine di cs)) (r_locals (find_routine di cs)) x = Some ix ->
  local_var_idx (d_env di) (r_params (find_routine di cs)) (r_locals (find_routine di cs)) y = Some iy ->
  0 <= ix -> 0 <= iy ->
  nth_error (s_cells sg) (Z.to_nat ix) = Some (Some (CI a)) ->
  nth_error (s_cells sg) (Z.to_nat iy) = Some (Some (CI b)) ->
  in_int a = true -> in_int b = true ->
  rho x = (1, PInt a) -> rho y = (1, PInt b) ->
  let e := EBin op (ELv x [] []) (ELv y [] []) in
  let c := CBin op (CNum 1 (PInt a)) (CNum 1 (PInt b)) in
  dbg_print di s e = dres_of (XF (fold_eval c)) /\
  (exists i j, push_lit 1 (PInt a) = CgOk [i] /\ push_lit 1 (PInt b) = CgOk [j] /\
     (forall s1, heap s1 = heap s -> cur s1 = cur s -> exec m (IRead true 1 ix) s1 = exec m i s1) /\
     (forall s1, heap s1 = heap s -> cur s1 = cur s -> exec m (IRead true 1 iy) s1 = exec m j s1)) /\
  (forall v, dbg_print di s e = DVal v -> exists cell, rt_eval c = RVal cell /\ pv_of cell = v).
Proof. intros. eapply int_binop_agrees; [|constructor|constructor|..]; eassumption. Qed.
Print Assumptions C13_dbg_expr_agrees_partial.

(* D01 inherited from the folder: 1.5 < 1.6 on two SINGLE variables prints 0;
   the program computes -1 (FoldProofs.fold_cmp_float_refuted) *)
Theorem C13_dbg_cmp_float_refuted :
  dbg_print ex_di in_main (EBin OLt (lv n_u) (lv n_v)) = DVal (PInt 0) /\
  rt_eval (CBin OLt (CNum 3 (PFlt f15)) (CNum 3 (PFlt f_1_6))) = RVal (CI (-1)).
Proof. split; [vm_compute; reflexivity | exact (proj2 fold_cmp_float_refuted)]. Qed.
Print Assumptions C13_dbg_cmp_float_refuted.

(* D43: exceptions other than EvalError escape do_print: x \ 0, an INTEGER
   overflow, 1 / 3, a subscripted constant, a field of a scalar inside an
   operator, any variable once the main frame is gone *)
Theorem C13_dbg_never_crashes_refuted :
  dbg_print ex_di in_main (EBin OIntdiv (lv n_a) (ENum 1 (PInt 0))) = DCrash K_ZERODIV /\
  dbg_print ex_di in_main (EBin OMul (lv n_a) (ENum 1 (PInt 20000))) = DCrash K_OVERFLOW /\
  dbg_print ex_di in_main (EBin ODiv (ENum 1 (PInt 1)) (ENum 1 (PInt 3))) = DCrash K_OVERFLOW /\
  dbg_print ex_di in_main (ELv n_c [ilit 1] []) = DCrash K_VALUE /\
  dbg_print ex_di in_main (EBin OAdd (ELv n_a [] [n_x]) (ENum 1 (PInt 1))) = DCrash K_COMPILE /\
  dbg_print ex_di finished (lv n_a) = DCrash K_ATTR.
Proof. vm_compute. repeat split; reflexivity. Qed.
Print Assumptions C13_dbg_never_crashes_refuted.

Theorem C13_dbg_after_finish_refuted : forall di s n idx path,
  cur s = None -> dbg_print di s (ELv n idx path) = DCrash K_ATTR.
Proof. exact no_frame_crashes. Qed.
Print Assumptions C13_dbg_after_finish_refuted.

(* STATIC variables are not in the debugger's global_vars: the program reads
   globals cell 1 (value 5), the debugger reports an unknown variable *)
Theorem C13_dbg_static_refuted : forall m,
  exec m (IRead false 1 1) in_sub = R tt (set_stack in_sub (CI 5 :: stack in_sub)) /\
  dbg_print ex_di in_sub (lv n_st) = DEvalError.
Proof. intro m. split; [reflexivity | vm_compute; reflexivity]. Qed.
Print Assumptions C13_dbg_static_refuted.

(* names are TYPED in the main routine whatever the current frame: the field
   y of the SUB's local record lq (cell 2, value 41) is shown as the content
   of cell 1 (the value of lq.x), the DOUBLE local w is added as a SINGLE *)
Theorem C13_typed_in_main_refuted : forall m,
  exec m (IReadidx true 2 1 1) in_sub = R tt (set_stack in_sub (CL 41 :: stack in_sub)) /\
  dbg_print ex_di in_sub (ELv n_lq [] [n_y]) = DVal (PInt 40) /\
  dtype ex_di (lv n_w) = Some 3.
Proof. intro m. split; [reflexivity | split; [vm_compute; reflexivity | reflexivity]]. Qed.
Print Assumptions C13_typed_in_main_refuted.

(* a field or a subscript on a scalar is ignored instead of being rejected *)
Theorem C13_dbg_scalar_path_refuted :
  dbg_print ex_di in_main (ELv n_a [] [n_x]) = DVal (PInt 3) /\
  dbg_print ex_di in_main (ELv n_a [ilit 1] []) = DVal (PInt 3).
Proof. vm_compute. split; reflexivity. Qed.
Print Assumptions C13_dbg_scalar_path_refuted.

Example C13_example_values :
  dbg_print ex_di in_main (lv n_a) = DVal (PInt 3) /\
  dbg_print ex_di in_main (ELv n_arr [ilit 2; ilit 0] []) = DVal (PInt 20) /\
  dbg_print ex_di in_main (ELv n_arr [ilit 3; ilit 0] []) = DEvalError /\
  dbg_print ex_di in_main (ELv n_p [] [n_y]) = DVal (PInt 9) /\
  dbg_print ex_di in_sub (lv n_q) = DVal (PInt 3) /\
  dbg_print ex_di in_main (EBin OAdd (lv n_a) (EBin OMul (lv n_b) (ENum 1 (PInt 2)))) = DVal (PInt 11).
Proof. vm_compute. repeat split; reflexivity. Qed.

(* the premises of the general theorems hold on a concrete stopped program *)
Example C13_example_scalar_premises : forall m,
  dbg_print ex_di in_main (lv n_b) = DVal (PInt 4) /\
  exec m (IRead true 1 1) in_main = R tt (set_stack in_main (CI 4 :: stack in_main)).
Proof. exact ex_local_scalar. Qed.

Example C13_example_element_premises : forall m s1 rest,
  heap s1 = heap in_main -> stack s1 = CRef 1 4 :: CL 0 :: CL 2 :: rest ->
  dbg_print ex_di in_main (ELv n_arr [ilit 2; ilit 0] []) = DVal (PInt 20) /\
  exec m (IArridx 2) s1 = R tt (set_stack s1 (CRef 1 13 :: rest)).
Proof. exact ex_element. Qed.
