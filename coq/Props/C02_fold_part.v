(* C02 - optimisation and compile-time evaluation never change behaviour.
   CONSTANT-FOLDER HALF (the peephole half is Props/C02_peep_part.v, Props/C02.v builds both).
   Statements, each proved by [exact] or in a line or two from a theorem of
   Proofs/FoldProofs.v, witnesses and examples by evaluation; Print Assumptions.
   Models: Models/Fold.v ([fold] = Expr.fold as it is in /repo, [rt_eval] = the
   code gen_* emits for the expression run by Cpu.exec from an empty stack,
   [fold_fixed] = the folder after fixes/C02-fold.diff).

   sound_at e  :=  (fold e = Folded ty v -> rt_eval e = RVal (the cell of type ty holding v))
                /\ (rt_eval e traps -> fold e = NotFolded)
                /\ (fold e is never a compiler crash)                                   *)
From Coq Require Import ZArith List Bool.
From QV Require Import Sx Strs Fl Cell Machine Cpu Fold FoldProofs.
Import ListNotations.
Open Scope Z_scope.

(* every pair of INTEGER literals (all 65536^2 pairs), 16 operators *)
Theorem C02_fold_sound_int : forall op a b, In op int_ops ->
  in_int a = true -> in_int b = true ->
  sound_at (CBin op (CNum 1 (PInt a)) (CNum 1 (PInt b))).
Proof. exact fold_sound_int. Qed.
Print Assumptions C02_fold_sound_int.

(* every pair of LONG literals: logical operators, MOD, comparisons *)
Theorem C02_fold_sound_long : forall op a b, In op long_ops ->
  in_long a = true -> in_long b = true ->
  sound_at (CBin op (CNum 2 (PInt a)) (CNum 2 (PInt b))).
Proof.
  intros op a b Hop Ha Hb. apply (int_pair_sound 2); auto.
  - unfold long_ops in Hop; simpl in Hop; intuition subst; reflexivity.
  - intros Hc Hz _. apply long_ops_in_long; assumption.
Qed.
Print Assumptions C02_fold_sound_long.

(* + - * \ on LONG literals only under the guard "the result is a LONG": the
   folder's own range test is 64 bits wide (ctypes.c_long) and never fires
   (C02_fold_long_arith_always_folds), see C02_fold_long_overflow_refuted *)
Theorem C02_fold_long_arith_partial : forall op a b, In op long_arith_ops ->
  in_long a = true -> in_long b = true ->
  in_long (long_raw op a b) = true ->
  sound_at (CBin op (CNum 2 (PInt a)) (CNum 2 (PInt b))).
Proof.
  intros op a b Hop Ha Hb Hg. apply (int_pair_sound 2); auto.
  unfold long_arith_ops in Hop; simpl in Hop; intuition subst; reflexivity.
Qed.
Print Assumptions C02_fold_long_arith_partial.

Theorem C02_fold_long_arith_always_folds : forall op a b, In op [OAdd; OSub; OMul] ->
  in_long a = true -> in_long b = true ->
  fold (CBin op (CNum 2 (PInt a)) (CNum 2 (PInt b))) = Folded 2 (PInt (long_raw op a b)).
Proof. exact fold_long_arith_always_folds. Qed.
Print Assumptions C02_fold_long_arith_always_folds.

(* + - * on DOUBLE literals (other than the literal -0#, see
   C02_fold_negative_zero_refuted): folder and machine apply the same Fl
   operation; overflow to inf / NaN is the same inf / NaN on both sides *)
Theorem C02_fold_float_arith_sound : forall op x y, In op [OAdd; OSub; OMul] ->
  x <> neg_zero -> y <> neg_zero ->
  fold (CBin op (dbl x) (dbl y)) = Folded 4 (PFlt (flop op x y)) /\
  rt_eval (CBin op (dbl x) (dbl y)) = RVal (CD (flop op x y)).
Proof.
  intros op x y Hop Hx Hy. apply dbl_pair_sound; auto.
  - simpl in *; intuition.
  - simpl in Hop; intuition subst; reflexivity.
Qed.
Print Assumptions C02_fold_float_arith_sound.

(* / on DOUBLE literals: zero divisor = not folded + DIVISION_BY_ZERO at run time *)
Theorem C02_fold_float_div_sound : forall x y, x <> neg_zero -> y <> neg_zero ->
  (is_zero y = true ->
     fold (CBin ODiv (dbl x) (dbl y)) = NotFolded /\
     rt_eval (CBin ODiv (dbl x) (dbl y)) = RTrap T_DIVISION_BY_ZERO) /\
  (is_zero y = false ->
     fold (CBin ODiv (dbl x) (dbl y)) = Folded 4 (PFlt (fdiv x y)) /\
     rt_eval (CBin ODiv (dbl x) (dbl y)) = RVal (CD (fdiv x y))).
Proof.
  intros x y Hx Hy. split; intros Hz; [exact (dbl_div_zero x y Hx Hy Hz)|].
  apply dbl_pair_sound; simpl; auto. unfold raw_op; simpl. rewrite Hz. reflexivity.
Qed.
Print Assumptions C02_fold_float_div_sound.

(* the static bound used by the layout = the LONG the generated code stores,
   for INTEGER / LONG literal bounds *)
Theorem C02_static_bound_agrees : forall ty z, ty = 1 \/ ty = 2 -> in_ty ty z = true ->
  static_bound (CNum ty (PInt z)) = BVal z /\ rt_bound (CNum ty (PInt z)) = RVal (CL z).
Proof. exact static_bound_agrees. Qed.
Print Assumptions C02_static_bound_agrees.

(* D02: 2000000000& + 2000000000& *)
Theorem C02_fold_long_overflow_refuted :
  exists a b v, in_long a = true /\ in_long b = true /\
    fold (CBin OAdd (CNum 2 (PInt a)) (CNum 2 (PInt b))) = Folded 2 (PInt v) /\
    in_long v = false /\
    rt_eval (CBin OAdd (CNum 2 (PInt a)) (CNum 2 (PInt b))) = RTrap T_INVALID_CELL_VALUE /\
    rt_eval (CNum 2 (PInt v)) = RAsmCrash KStruct.
Proof. exists 2000000000, 2000000000, 4000000000. vm_compute. repeat split; reflexivity. Qed.
Print Assumptions C02_fold_long_overflow_refuted.

(* -2147483648& \ -1& *)
Theorem C02_fold_long_intdiv_refuted :
  exists a b v, in_long a = true /\ in_long b = true /\
    fold (CBin OIntdiv (CNum 2 (PInt a)) (CNum 2 (PInt b))) = Folded 2 (PInt v) /\
    in_long v = false /\
    rt_eval (CBin OIntdiv (CNum 2 (PInt a)) (CNum 2 (PInt b))) = RTrap T_INVALID_CELL_VALUE.
Proof. exists (-2147483648), (-1), 2147483648. vm_compute. repeat split; reflexivity. Qed.
Print Assumptions C02_fold_long_intdiv_refuted.

(* D01: 1.5 < 1.6 *)
Theorem C02_fold_cmp_float_refuted :
  fold (CBin OLt (CNum 3 (PFlt f_1_5)) (CNum 3 (PFlt f_1_6))) = Folded 1 (PInt 0) /\
  rt_eval (CBin OLt (CNum 3 (PFlt f_1_5)) (CNum 3 (PFlt f_1_6))) = RVal (CI (-1)).
Proof. exact fold_cmp_float_refuted. Qed.
Print Assumptions C02_fold_cmp_float_refuted.

(* D03: "a" = "b" crashes the compiler; "1" = "2" is folded to 12 *)
Theorem C02_fold_string_cmp_refuted :
  fold (CBin OEq (CStrLit [97]) (CStrLit [98])) = CompilerCrash KValue /\
  rt_eval (CBin OEq (CStrLit [97]) (CStrLit [98])) = RVal (CI 0) /\
  fold (CBin OEq (CStrLit [49]) (CStrLit [50])) = Folded 1 (PInt 12) /\
  rt_eval (CBin OEq (CStrLit [49]) (CStrLit [50])) = RVal (CI 0).
Proof. vm_compute. repeat split; reflexivity. Qed.
Print Assumptions C02_fold_string_cmp_refuted.

(* D04 / D33, the clamp of UnaryOp.eval: -(3e10#) becomes -2147483648#; -(-32768%) and
   NOT 1e10# overflow at run time, are folded to -32768 and -2147483648 *)
Theorem C02_fold_neg_clamp_refuted :
  fold (CUn UNeg (CNum 4 (PFlt f_3e10))) = Folded 4 (PFlt (of_Z (-2147483648))) /\
  rt_eval (CUn UNeg (CNum 4 (PFlt f_3e10))) = RVal (CD (fneg f_3e10)) /\
  fold (CUn UNeg (CNum 1 (PInt (-32768)))) = Folded 1 (PInt (-32768)) /\
  rt_eval (CUn UNeg (CNum 1 (PInt (-32768)))) = RTrap T_INVALID_CELL_VALUE /\
  fold (CUn UNot (CNum 4 (PFlt f_1e10))) = Folded 2 (PInt (-2147483648)) /\
  rt_eval (CUn UNot (CNum 4 (PFlt f_1e10))) = RTrap T_INVALID_CELL_VALUE.
Proof. vm_compute. repeat split; reflexivity. Qed.
Print Assumptions C02_fold_neg_clamp_refuted.

(* a SINGLE literal keeps its double value in the folder, the machine loads it rounded *)
Theorem C02_fold_single_literal_refuted :
  exists v, fold (CBin OAdd (CNum 3 (PFlt f_0_1)) (CNum 4 (PFlt f_one))) = Folded 4 (PFlt v) /\
            rt_eval (CBin OAdd (CNum 3 (PFlt f_0_1)) (CNum 4 (PFlt f_one))) <> RVal (CD v).
Proof. exists (FFin false 2476979795053773 (-51)). split; [vm_compute; reflexivity | vm_compute; discriminate]. Qed.
Print Assumptions C02_fold_single_literal_refuted.

(* a SINGLE sum that overflows is folded into a literal the assembler cannot encode *)
Theorem C02_fold_single_overflow_refuted :
  exists v, fold (CBin OAdd (CNum 3 (PFlt f_3e38)) (CNum 3 (PFlt f_3e38))) = Folded 3 (PFlt v) /\
            rt_eval (CBin OAdd (CNum 3 (PFlt f_3e38)) (CNum 3 (PFlt f_3e38))) = RTrap T_INVALID_CELL_VALUE /\
            rt_eval (CNum 3 (PFlt v)) = RAsmCrash KOverflow.
Proof. exists (FFin false 7395571 106). vm_compute. repeat split; reflexivity. Qed.
Print Assumptions C02_fold_single_overflow_refuted.

(* no witness for `\` on a float operand: it is typed integral, like MOD, since the fix commit for D46 *)

(* ^ with a negative exponent: TypeError in the compiler (D32 at run time: 0) *)
Theorem C02_fold_exp_negative_refuted :
  fold (CBin OExp (CNum 1 (PInt 2)) (CNum 1 (PInt (-1)))) = CompilerCrash KType /\
  rt_eval (CBin OExp (CNum 1 (PInt 2)) (CNum 1 (PInt (-1)))) = RVal (CI 0).
Proof. vm_compute. split; reflexivity. Qed.
Print Assumptions C02_fold_exp_negative_refuted.

(* the folded literal -0# is assembled as push0#: the sign is lost *)
Theorem C02_fold_negative_zero_refuted :
  fold (CUn UNeg (CNum 4 (PFlt (fzero false)))) = Folded 4 (PFlt (fzero true)) /\
  rt_eval (CUn UNeg (CNum 4 (PFlt (fzero false)))) = RVal (CD (fzero true)) /\
  rt_eval (CNum 4 (PFlt (fzero true))) = RVal (CD (fzero false)).
Proof. vm_compute. repeat split; reflexivity. Qed.
Print Assumptions C02_fold_negative_zero_refuted.

(* logical operators on a float operand are not range checked: 1e10# AND 1e10# *)
Theorem C02_fold_logical_float_refuted :
  exists v, fold (CBin OAnd (CNum 4 (PFlt f_1e10)) (CNum 4 (PFlt f_1e10))) = Folded 2 (PInt v) /\
            in_long v = false /\
            rt_eval (CBin OAnd (CNum 4 (PFlt f_1e10)) (CNum 4 (PFlt f_1e10))) = RTrap T_INVALID_CELL_VALUE.
Proof. exists 10000000000. vm_compute. repeat split; reflexivity. Qed.
Print Assumptions C02_fold_logical_float_refuted.

(* a bound whose folder value differs from the run-time value: 0 TO -(1.5 < 1.6) *)
Theorem C02_static_bound_refuted :
  static_bound (CUn UNeg (CParen (CBin OLt (CNum 3 (PFlt f_1_5)) (CNum 3 (PFlt f_1_6))))) = BVal 0 /\
  rt_bound (CUn UNeg (CParen (CBin OLt (CNum 3 (PFlt f_1_5)) (CNum 3 (PFlt f_1_6))))) = RVal (CL 1).
Proof. vm_compute. split; reflexivity. Qed.
Print Assumptions C02_static_bound_refuted.

(* for EVERY constant expression (all 18 binary and 3 unary operators, all
   types, all values, any nesting): a folded literal is exactly the cell the
   generated code computes at run time *)
Theorem C02_fold_fixed_sound : forall e ty v, fold_fixed e = Folded ty v ->
  exists c, cell_of_val ty v = Some c /\ rt_eval_fixed e = RVal c.
Proof. exact fold_fixed_sound. Qed.
Print Assumptions C02_fold_fixed_sound.

(* an expression that traps at run time is never folded to a value ... *)
Theorem C02_fold_fixed_keeps_traps : forall e code, rt_eval_fixed e = RTrap code ->
  forall ty v, fold_fixed e <> Folded ty v.
Proof.
  intros e code Hr ty v Hf. destruct (fold_fixed_sound e ty v Hf) as (c & _ & Hc).
  rewrite Hr in Hc. discriminate.
Qed.
Print Assumptions C02_fold_fixed_keeps_traps.

(* ... and never crashes the compiler *)
Theorem C02_fold_fixed_never_crashes : forall e k, fold_fixed e <> CompilerCrash k.
Proof. intros e k. unfold fold_fixed. destruct (eval_fixed e); discriminate. Qed.
Print Assumptions C02_fold_fixed_never_crashes.

(* 32767% + 1% : not folded, traps at run time *)
Example C02_fold_example_overflow :
  fold (CBin OAdd (CNum 1 (PInt 32767)) (CNum 1 (PInt 1))) = NotFolded /\
  rt_eval (CBin OAdd (CNum 1 (PInt 32767)) (CNum 1 (PInt 1))) = RTrap T_INVALID_CELL_VALUE.
Proof. vm_compute. split; reflexivity. Qed.

(* -7% MOD 3% = 2 (floor semantics on both sides) *)
Example C02_fold_example_mod :
  fold (CBin OMod (CNum 1 (PInt (-7))) (CNum 1 (PInt 3))) = Folded 1 (PInt 2) /\
  rt_eval (CBin OMod (CNum 1 (PInt (-7))) (CNum 1 (PInt 3))) = RVal (CI 2).
Proof. vm_compute. split; reflexivity. Qed.

(* the fixed folder on the D01 witness and on a nested mixed-type expression:
   (0.1! + 0.2!) * 3#  folds to the cell the machine computes *)
Example C02_fold_example_fixed :
  fold_fixed (CBin OLt (CNum 3 (PFlt f_1_5)) (CNum 3 (PFlt f_1_6))) = Folded 1 (PInt (-1)) /\
  (exists v, fold_fixed (CBin OMul (CParen (CBin OAdd (CNum 3 (PFlt f_0_1)) (CNum 3 (PFlt (fl_of_bits 4596373779694328218)))))
                              (CNum 4 (PFlt (of_Z 3)))) = Folded 4 (PFlt v) /\
             rt_eval_fixed (CBin OMul (CParen (CBin OAdd (CNum 3 (PFlt f_0_1)) (CNum 3 (PFlt (fl_of_bits 4596373779694328218)))))
                              (CNum 4 (PFlt (of_Z 3)))) = RVal (CD v)) /\
  fold_fixed (CBin OAdd (CNum 2 (PInt 2000000000)) (CNum 2 (PInt 2000000000))) = NotFolded.
Proof.
  split; [vm_compute; reflexivity|]. split; [|vm_compute; reflexivity].
  exists (FFin false 15099495 (-24)). vm_compute. split; reflexivity.
Qed.
