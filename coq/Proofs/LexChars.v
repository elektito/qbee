(* C14 - the character classes of Models/Lex.v.  Every class is a range of code
   points or a handful of them, so how two classes lie to each other is linear
   arithmetic on code points ([classes]); a class is told apart from a single
   code point k by evaluating it at k ([class_ne]). *)
From Coq Require Import ZArith Bool Lia ZifyBool.
From QV Require Import Sx Strs Lex.
Open Scope Z_scope.

Lemma b_true_false (b : bool) : b = true -> b = false -> False.
Proof. apply eq_true_false_abs. Qed.

Lemma class_ne (p : Z -> bool) c k : p c = true -> p k = false -> (c =? k) = false.
Proof. intros Hc Hk. apply Z.eqb_neq. intros ->. exact (b_true_false _ Hc Hk). Qed.

Ltac classes :=
  unfold is_suffix, is_numsuffix, is_numch, is_alnum, is_alpha, is_upper, is_lower, is_digit,
    is_sign, is_relch, is_colon;
  lia.

Lemma relch_cases c : is_relch c = true -> c = 60 \/ c = 61 \/ c = 62.
Proof. classes. Qed.

Lemma numsuffix_not_numch c : is_numsuffix c = true -> is_numch c = false.
Proof. classes. Qed.

Lemma numsuffix_not_alnum c : is_numsuffix c = true -> is_alnum c = false.
Proof. classes. Qed.

Lemma numsuffix_not_sign c : is_numsuffix c = true -> is_sign c = false.
Proof. classes. Qed.

Lemma numsuffix_suffix c : is_numsuffix c = true -> is_suffix c = true.
Proof. unfold is_suffix. now intros ->. Qed.

Lemma suffix_not_alnum c : is_suffix c = true -> is_alnum c = false.
Proof. classes. Qed.

Lemma sign_not_numch c : is_sign c = true -> is_numch c = false.
Proof. classes. Qed.

Lemma digit_numch c : is_digit c = true -> is_numch c = true.
Proof. unfold is_numch, is_alnum. intros ->. now rewrite orb_true_r. Qed.

Lemma alnum_numch c : is_alnum c = true -> is_numch c = true.
Proof. unfold is_numch. now intros ->. Qed.

Lemma alpha_alnum c : is_alpha c = true -> is_alnum c = true.
Proof. unfold is_alnum. now intros ->. Qed.

Lemma digit_not_blank c : is_digit c = true -> is_blank c = false.
Proof. intro H. unfold is_blank. now rewrite !(class_ne _ c _ H). Qed.

Lemma alpha_not_blank c : is_alpha c = true -> is_blank c = false.
Proof. intro H. unfold is_blank. now rewrite !(class_ne _ c _ H). Qed.

(* every letter lies in the same classes: the only tests that tell two
   letters apart are [is_ho] and [is_expch], which go through [lower_ch] *)
Lemma alpha_classes c :
  is_alpha c = true ->
  is_alnum c = true /\ is_numch c = true /\ is_digit c = false /\
  is_suffix c = false /\ is_numsuffix c = false /\ is_sign c = false /\
  is_relch c = false /\ is_colon c = false /\ (c =? 10) = false.
Proof. classes. Qed.

Lemma alpha_not_digit c : is_alpha c = true -> is_digit c = false.
Proof. intro H. apply (alpha_classes c H). Qed.

Lemma alpha_lower c : is_alpha c = is_lower (lower_ch c).
Proof. unfold lower_ch. destruct (is_upper c) eqn:E; revert E; classes. Qed.

Lemma digit_lower c : is_digit c = is_digit (lower_ch c).
Proof. unfold lower_ch. destruct (is_upper c) eqn:E; revert E; classes. Qed.

Lemma lower_ch_alpha a b : lower_ch a = lower_ch b -> is_alpha a = is_alpha b.
Proof. intro H. now rewrite !alpha_lower, H. Qed.

Lemma lower_ch_alnum a b : lower_ch a = lower_ch b -> is_alnum a = is_alnum b.
Proof. intro H. unfold is_alnum. now rewrite !alpha_lower, (digit_lower a), (digit_lower b), H. Qed.

Lemma lower_ch_idem c : lower_ch (lower_ch c) = lower_ch c.
Proof.
  unfold lower_ch at 1. destruct (is_upper (lower_ch c)) eqn:E; [|reflexivity].
  revert E. unfold lower_ch. destruct (is_upper c) eqn:E; revert E; classes.
Qed.

Lemma ho_alnum c : is_ho c = true -> is_alnum c = true.
Proof.
  unfold is_ho. intro H. apply alpha_alnum. rewrite alpha_lower.
  apply orb_true_iff in H as [->%Z.eqb_eq | ->%Z.eqb_eq]; reflexivity.
Qed.
