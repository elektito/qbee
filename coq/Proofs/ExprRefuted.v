(* Witnesses: outside the guard of the proved theorem the generated code and
   the reference semantics disagree on the unchanged tree (D06, D32).  That
   each does is checked by evaluation in Props/C01.v. *)
From Coq Require Import ZArith List Bool.
From QV Require Import Sx Strs Fl Cell Machine Cpu SemBase ExprCodegen.
Import ListNotations.
Open Scope Z_scope.

Definition m0 : module := mkModule [] [] [] 0 None.
Definition st0 : st := init_state m0 (mkScript [] [] [] []).

Definition disagrees (e : pexpr) : Prop :=
  exists st' v v',
    exec_list m0 (cg e) st0 = R tt st' /\ stack st' = [v] /\
    peval no_quirks (fun _ => None) e = POk v' /\ v <> v'.

Definition e_idiv : pexpr := PBin OIDiv (PUn UNeg (PLit (CI 7))) (PLit (CI 2)).
Definition e_mod : pexpr := PBin OMod (PUn UNeg (PLit (CI 7))) (PLit (CI 2)).
Definition e_pow : pexpr := PBin OPow (PLit (CI 2)) (PUn UNeg (PLit (CI 1))).
