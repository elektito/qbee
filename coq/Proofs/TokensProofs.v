(* C06: the two parse actions and the position arithmetic of Models/Tokens.v.
   The well-shaped token lists are the encoded ones ([encode a pairs]), and on
   those both loops are followed by induction on the pairs.  Each position
   function has a lemma that says where it answers and within which bounds;
   [target_go_spec] leaves the end of the text open, which
   [target_go_after_nl] settles after a final newline. *)
From Coq Require Import ZArith List Bool Lia ZifyBool.
From QV Require Import Sx Tokens.
Import ListNotations.
Open Scope Z_scope.

Lemma even_double n : Nat.even (2 * n) = true.
Proof. now rewrite Nat.even_mul. Qed.

(* an operand, then operator and operand in pairs: the parity both actions assert *)
Lemma encode_odd a pairs : Nat.even (length (encode a pairs)) = false.
Proof. unfold encode. induction pairs as [|p pairs IH]; [reflexivity | exact IH]. Qed.

Lemma shape_ok_decode : forall isop rest,
  shape_ok isop rest = true ->
  exists pairs, rest = flat_map (fun p => [TStr (fst p); TNode (snd p)]) pairs /\
                forallb (fun p => isop (fst p)) pairs = true.
Proof.
  intros isop. fix IH 1. intros rest H.
  destruct rest as [|[t'|k] [|[t|k'] rest]]; try discriminate; [exists []; split; reflexivity|].
  simpl in H. apply andb_true_iff in H as [Hk H].
  destruct (IH rest H) as (pairs & -> & F).
  exists ((k, t) :: pairs). simpl. rewrite Hk. split; [reflexivity | exact F].
Qed.

Lemma well_shaped_decode : forall isop toks,
  well_shaped isop toks = true ->
  exists a pairs, toks = encode a pairs /\ forallb (fun p => isop (fst p)) pairs = true.
Proof.
  intros isop toks H. destruct toks as [|[a|k] rest]; try discriminate.
  destruct (shape_ok_decode isop rest H) as (pairs & -> & F).
  exists a, pairs. split; [reflexivity | exact F].
Qed.

Lemma left_loop_encode : forall pairs a,
  forallb (fun p => is_binop_str (fst p)) pairs = true ->
  left_loop (TNode a) (flat_map (fun p => [TStr (fst p); TNode (snd p)]) pairs)
  = RTree (left_nest a pairs).
Proof.
  induction pairs as [|[k x] pairs IH]; intros a H; simpl in *; [reflexivity|].
  apply andb_true_iff in H as [Hk H]. unfold is_binop_str in Hk.
  unfold left_nest. simpl. unfold opid.
  destruct (binop_of_str k); [apply IH, H | discriminate].
Qed.

Lemma left_assoc_total : forall a pairs,
  forallb (fun p => is_binop_str (fst p)) pairs = true ->
  parse_left (encode a pairs) = RTree (left_nest a pairs).
Proof.
  intros a pairs H. unfold parse_left. rewrite encode_odd.
  unfold encode. apply left_loop_encode, H.
Qed.

Lemma left_loop_tree_shape : forall rest node t,
  left_loop node rest = RTree t -> well_shaped is_binop_str (node :: rest) = true.
Proof.
  fix IH 1. intros [|[ot|k] [|x rest]] node t H; try discriminate H.
  - destruct node; [reflexivity | discriminate H].
  - cbn in H |- *. unfold is_binop_str.
    destruct (binop_of_str k) as [op|]; [|discriminate].
    destruct node as [a|kn], x as [b|kx]; try discriminate. exact (IH rest _ t H).
Qed.

Lemma left_assoc_tree_iff_shape : forall toks,
  (exists t, parse_left toks = RTree t) <-> well_shaped is_binop_str toks = true.
Proof.
  intro toks. split.
  - intros [t H]. unfold parse_left in H.
    destruct (Nat.even (length toks)); [discriminate|].
    destruct toks as [|n rest]; [discriminate|].
    exact (left_loop_tree_shape rest n t H).
  - intro H. destruct (well_shaped_decode _ _ H) as (a & pairs & -> & F).
    eexists. apply left_assoc_total, F.
Qed.

Lemma inorder_left_nest : forall pairs t,
  inorder (left_nest t (leaves pairs)) =
  inorder t ++ flat_map (fun p => [IOp (opid (fst p)); IAtom (snd p)]) pairs.
Proof.
  induction pairs as [|[k n] pairs IH]; intro t; simpl.
  - rewrite app_nil_r. reflexivity.
  - unfold left_nest in *. simpl. rewrite IH. simpl. rewrite <- app_assoc. reflexivity.
Qed.

Lemma leaves_ops isop pairs :
  forallb (fun p => isop (fst p)) (leaves pairs) = forallb (fun p => isop (fst p)) pairs.
Proof.
  unfold leaves. induction pairs as [|p pairs IH]; cbn [map forallb fst];
    [reflexivity | now rewrite IH].
Qed.

(* The loop runs over the reversed list, so it meets an encoded chain from its
   last operand; by the time it has passed the chain it holds the chain's
   right-nested tree and goes on with whatever stood in front of it. *)
Lemma right_loop_rev_encode : forall pairs a front,
  forallb (fun p => is_caret_str (fst p)) pairs = true ->
  match rev (encode a pairs) ++ front with
  | [] => RCrash CAssert
  | n :: rest => right_loop n rest
  end = right_loop (TNode (right_nest a pairs)) front.
Proof.
  induction pairs as [|[k x] pairs IH]; intros a front H; [reflexivity|].
  cbn [forallb fst] in H. apply andb_true_iff in H as [Hk H].
  apply Z.eqb_eq in Hk. subst k.
  change (encode a ((0, x) :: pairs)) with ([TNode a; TStr 0] ++ encode x pairs).
  rewrite rev_app_distr, <- app_assoc. exact (IH x _ H).
Qed.

Lemma right_assoc_total : forall a pairs,
  forallb (fun p => is_caret_str (fst p)) pairs = true ->
  parse_right (encode a pairs) = RTree (right_nest a pairs).
Proof.
  intros a pairs H. unfold parse_right. rewrite encode_odd.
  rewrite <- (app_nil_r (rev _)). exact (right_loop_rev_encode pairs a [] H).
Qed.

Lemma inorder_right_nest : forall pairs a,
  inorder (right_nest (Leaf a) (leaves pairs)) =
  IAtom a :: flat_map (fun p => [IOp 0; IAtom (snd p)]) pairs.
Proof.
  induction pairs as [|[k n] pairs IH]; intro a; simpl; [reflexivity|].
  rewrite IH. reflexivity.
Qed.

Lemma is_sign_not_caret t : is_sign t = true -> is_caret t = false.
Proof. destruct t as [t|[|p|p]]; [reflexivity | discriminate | reflexivity | reflexivity]. Qed.

Lemma is_sign_str t : is_sign t = true -> exists k, t = TStr k.
Proof. destruct t as [t|k]; simpl; [discriminate|]. intros _. now exists k. Qed.

(* two or more signs in front of the node in hand: a sign where "^" is asserted *)
Lemma right_loop_rev_signs node sg :
  forallb is_sign sg = true -> (2 <= length sg)%nat ->
  right_loop node (rev sg) = RCrash CAssert.
Proof.
  intros H L. rewrite <- rev_length in L.
  destruct (rev sg) as [|s [|x rest]] eqn:R; cbn [length] in L; try lia.
  cbn [right_loop]. rewrite is_sign_not_caret; [reflexivity|].
  rewrite forallb_forall in H. apply H, in_rev. rewrite R. now left.
Qed.

(* signs in front of a chain: an odd number of them fails the parity assert,
   an even number the assert of "^" *)
Lemma right_signed_crash sg a pairs :
  sg <> [] -> forallb is_sign sg = true ->
  forallb (fun p => is_caret_str (fst p)) pairs = true ->
  parse_right (sg ++ encode a pairs) = RCrash CAssert.
Proof.
  intros Hne Hs Hc. unfold parse_right.
  destruct (Nat.even (length (sg ++ encode a pairs))) eqn:E; [reflexivity|].
  rewrite rev_app_distr, right_loop_rev_encode by exact Hc.
  apply right_loop_rev_signs; [exact Hs|].
  rewrite app_length, Nat.even_add, encode_odd in E.
  destruct sg as [|s1 [|s2 sg]]; [contradiction | discriminate | cbn [length]; lia].
Qed.

Lemma strip_signs_spec : forall toks k r,
  strip_signs toks = (k, r) ->
  exists sg, toks = sg ++ r /\ length sg = k /\ forallb is_sign sg = true.
Proof.
  induction toks as [|t toks IH]; intros k r H; simpl in H.
  - injection H as <- <-. exists []. repeat split.
  - destruct (is_sign t) eqn:Es.
    + destruct (strip_signs toks) as [n r'] eqn:E. injection H as <- <-.
      destruct (IH n r' eq_refl) as (sg & -> & <- & Hs).
      exists (t :: sg). cbn. rewrite Es. repeat split. exact Hs.
    + injection H as <- <-. exists []. repeat split.
Qed.

Lemma exponent_shape_outcome : forall toks k,
  exponent_shape toks = Some k ->
  (k = O -> exists t, parse_right toks = RTree t) /\
  (k <> O -> parse_right toks = RCrash CAssert).
Proof.
  intros toks k H. unfold exponent_shape in H.
  destruct (strip_signs toks) as [n r] eqn:E.
  apply strip_signs_spec in E as (sg & -> & <- & Hs).
  (* what follows the signs is a chain of one operand or of two *)
  assert (Hr : exists a pairs, r = encode a pairs /\
                 forallb (fun p => is_caret_str (fst p)) pairs = true /\ k = length sg).
  { destruct r as [|[a|] r]; try discriminate H.
    destruct r as [|[|[| |]] r]; try discriminate H; [exists a, []; now injection H|].
    destruct r as [|[b|] [|]]; try discriminate H. exists a, [(0, b)]. now injection H. }
  destruct Hr as (a & pairs & -> & Hc & ->). split.
  - intro H0. destruct sg; [|discriminate]. eexists. apply right_assoc_total, Hc.
  - intro H0. apply right_signed_crash; [intros -> | |]; auto.
Qed.

Lemma count_nl_cons c s : count_nl (c :: s) = (if c =? ch_nl then 1 else 0) + count_nl s.
Proof. unfold count_nl. cbn [filter]. destruct (c =? ch_nl); cbn [length]; lia. Qed.

Lemma count_nl_nonneg s : 0 <= count_nl s.
Proof. unfold count_nl. lia. Qed.

Lemma line_col_go_spec : forall s idx line col off,
  match line_col_go s idx line col off with
  | Some (l, c) => idx <= off < idx + Z.of_nat (length s) /\
                   line <= l <= line + count_nl s /\ (0 <= col -> 0 <= c)
  | None => off < idx \/ idx + Z.of_nat (length s) <= off
  end.
Proof.
  induction s as [|ch s IH]; intros idx line col off; cbn [length line_col_go]; [lia|].
  rewrite count_nl_cons. pose proof (count_nl_nonneg s).
  destruct (Z.eqb_spec idx off); [destruct (ch =? ch_nl); lia|].
  destruct (ch =? ch_nl);
    [specialize (IH (idx + 1) (line + 1) 1 off) | specialize (IH (idx + 1) line (col + 1) off)];
    destruct (line_col_go s _ _ _ off) as [[l c]|]; lia.
Qed.

(* a target line is found for every position inside the text and for none
   outside; at the end of the text it depends on the last line *)
Lemma target_go_spec : forall s i pos line loc,
  i <= pos ->
  match target_go s i pos line loc with
  | Some (l, c) => i <= loc <= pos + Z.of_nat (length s) /\
                   line <= l <= line + count_nl s /\ 1 <= c <= loc + 1 - i
  | None => loc < i \/ pos + Z.of_nat (length s) <= loc
  end.
Proof.
  induction s as [|ch s IH]; intros i pos line loc Hi; cbn [length target_go].
  - unfold count_nl. destruct (i <? pos) eqn:A, ((i <=? loc) && (loc <=? pos)) eqn:B; cbn; lia.
  - rewrite count_nl_cons. pose proof (count_nl_nonneg s).
    destruct (ch =? ch_nl); [destruct ((i <=? loc) && (loc <=? pos)) eqn:Here; [lia|]|].
    + specialize (IH (pos + 1) (pos + 1) (line + 1) loc).
      destruct (target_go s _ _ _ loc) as [[l c]|]; lia.
    + specialize (IH i (pos + 1) line loc).
      destruct (target_go s _ _ _ loc) as [[l c]|]; lia.
Qed.

(* an offset beyond a final newline has no line: the line that would start
   there is empty (i = pos at the end of the text) *)
Lemma target_go_after_nl : forall s i pos line loc,
  pos + Z.of_nat (length s) < loc -> target_go (s ++ [ch_nl]) i pos line loc = None.
Proof.
  induction s as [|ch s IH]; intros i pos line loc H; cbn [length app target_go] in *;
    replace ((i <=? loc) && (loc <=? pos)) with false by lia.
  - cbn. now rewrite Z.ltb_irrefl.
  - destruct (ch =? ch_nl); apply IH; lia.
Qed.

Lemma display_target_empty : forall loc, display_target [] loc = None.
Proof. intro loc. reflexivity. Qed.
