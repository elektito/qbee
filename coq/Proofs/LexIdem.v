(* C14 - [canon] is idempotent: the canonical text is its own canonical text
   (Props/C14.v, from the two theorems at the end).  The rendered lines are
   shown to be a lexer image ([lay_ok]) that normalises to the same lines. *)
From Coq Require Import ZArith List Bool.
From QV Require Import Sx Strs Lex LexChars LexSpan LexTok LexLayout LexProofs.
Import ListNotations.
Open Scope Z_scope.

Definition is_nl_tok (t : token) : bool := match t with TNewline => true | _ => false end.

(* [t2] may come after [t1], whatever the blanks between them: a token that
   runs to the end of its line is followed by the newline, or a DATA payload
   with closed quotes by the colon *)
Definition follows (t1 t2 : token) : bool :=
  negb (eol_kind t1) || is_nl_tok t2 ||
  (data_colon t1 && match t2 with TColon => true | _ => false end).

Fixpoint chain (l : list token) : bool :=
  match l with
  | [] => true
  | t1 :: r => match r with t2 :: _ => follows t1 t2 | [] => true end && chain r
  end.

Lemma stops_follows t ws' t' :
  forallb is_blank ws' = true -> tok_ok t' = true ->
  stops t (hd_error (ws' ++ text t')) = true -> follows t t' = true.
Proof.
  intros Hw Hok. unfold follows. destruct (eol_kind t) eqn:E; [|reflexivity].
  rewrite (stops_eol t _ E). destruct ws' as [|b ws'].
  - destruct (text_first_char t' Hok) as (c & u & -> & T10 & T58).
    intros [->%T10 | [-> ->%T58]%andb_true_iff]%orb_true_iff; cbn; now rewrite ?orb_true_r.
  - (* a blank is neither a newline nor a colon *)
    apply andb_true_iff in Hw as [Hb _]. cbn [app hd_error at_eol ohd]. unfold is_colon.
    now rewrite (class_ne _ b 10 Hb), (class_ne _ b 58 Hb), andb_false_r.
Qed.

Lemma lay_chain l nxt :
  lay_ok l nxt = true ->
  Forall (fun t => tok_ok t = true) (map snd l) /\ chain (map snd l) = true.
Proof.
  induction l as [|[ws t] l IH]; [intros _; split; constructor|].
  cbn [lay_ok map snd chain].
  intros [[[H1 H2]%andb_true_iff H3]%andb_true_iff H4]%andb_true_iff.
  destruct (IH H4) as [I1 I2]. split; [now constructor|]. rewrite I2, andb_true_r.
  destruct l as [|[ws' t'] l']; [reflexivity|]. cbn [map snd hd_lay lay_ok] in *.
  apply andb_true_iff in H4 as [[[W1 W2]%andb_true_iff _]%andb_true_iff _].
  exact (stops_follows t ws' t' W1 W2 H3).
Qed.

Lemma lower_idem s : lower (lower s) = lower s.
Proof. unfold lower. rewrite map_map. apply map_ext. intro. apply lower_ch_idem. Qed.

Lemma norm_op_idem o : norm_op (norm_op o) = norm_op o.
Proof.
  unfold norm_op.
  destruct (str_eqb o [62; 60]) eqn:E1; [reflexivity|].
  destruct (str_eqb o [61; 60]) eqn:E2; [reflexivity|].
  destruct (str_eqb o [61; 62]) eqn:E3; [reflexivity|].
  now rewrite E1, E2, E3.
Qed.

Lemma norm_op_ok o : tok_ok (TOp o) = true -> tok_ok (TOp (norm_op o)) = true.
Proof. intro H. unfold norm_op. now repeat destruct (str_eqb o _). Qed.

Definition norm_ok (t : token) : Prop := tok_ok t = true /\ norm_tok t = [t].

Lemma norm_tok_norm t : tok_ok t = true -> Forall norm_ok (norm_tok t).
Proof.
  assert (Hkw : forall kw, same_case kw (lower kw)) by (intro; symmetry; apply lower_idem).
  intro H. destruct t; cbn [norm_tok]; repeat constructor; cbn [norm_tok tok_ok] in *;
    rewrite ?lower_idem, ?norm_op_idem; auto.
  - now destruct (same_case_kw _ _ (Hkw run)) as (-> & -> & ->).
  - now apply norm_op_ok.
  - now destruct (same_case_kw _ _ (Hkw kw)) as (-> & -> & ->).
  - destruct (same_case_kw _ _ (Hkw kw)) as (-> & -> & _). cbn. rewrite !andb_true_r.
    rewrite !andb_true_iff in *. tauto.
Qed.

Lemma norm_tok_cases t :
  norm_tok t = [] \/
  exists t', norm_tok t = [t'] /\ eol_kind t' = eol_kind t /\ data_colon t' = data_colon t.
Proof. destruct t; cbn [norm_tok]; eauto. Qed.

(* an apostrophe comment, which normalisation drops, stands only after a token
   that anything may follow; after the other kinds comes a newline or a colon,
   and these stay *)
Lemma chain_norm l : chain l = true -> chain (flat_map norm_tok l) = true.
Proof.
  induction l as [|t r IH]; [auto|]. cbn [chain flat_map]. intros [Hf Hr]%andb_true_iff.
  specialize (IH Hr). destruct (norm_tok_cases t) as [-> | (t' & -> & K1 & K2)]; [exact IH|].
  cbn [app chain]. rewrite IH, andb_true_r.
  destruct r as [|t2 r2]; [reflexivity|]. cbn [flat_map]. unfold follows in *. rewrite K1, K2.
  destruct (eol_kind t).
  - destruct t2; cbn in *; rewrite ?andb_false_r in Hf; try discriminate; auto.
  - now destruct (norm_tok t2 ++ flat_map norm_tok r2).
Qed.

Lemma norm_ok_fixed l : Forall norm_ok l -> flat_map norm_tok l = l.
Proof.
  induction 1 as [|t l [_ Ht] _ IH]; [reflexivity|]. cbn [flat_map]. now rewrite Ht, IH.
Qed.

(* what every line of [normalise] satisfies, and what makes a line come back
   from [render] unchanged *)
Definition line_ok (l : list token) : Prop :=
  Forall norm_ok l /\ forallb (fun t => negb (is_nl_tok t)) l = true /\ chain l = true.

Lemma lines_hd r x h tl : lines r = (x :: h) :: tl -> exists r2, r = x :: r2.
Proof.
  destruct r as [|t r2]; [discriminate|].
  destruct t; cbn [lines]; try discriminate; destruct (lines r2); intros [= -> _]; eauto.
Qed.

Lemma lines_ok l : Forall norm_ok l -> chain l = true -> Forall line_ok (lines l).
Proof.
  assert (H0 : line_ok []) by (repeat split; constructor).
  induction 1 as [|t r Ht Hr IH]; [repeat constructor; exact H0|].
  cbn [chain]. intros [C1 C2]%andb_true_iff. specialize (IH C2).
  destruct (is_nl_tok t) eqn:En.
  - destruct t; try discriminate. now constructor.
  - rewrite lines_cons by (intros ->; discriminate).
    destruct (lines r) as [|h tl] eqn:E; [now destruct (lines_nonempty r)|].
    inversion IH as [|? ? (I1 & I2 & I3) Itl]; subst. constructor; [|exact Itl].
    repeat split; [now constructor | cbn [forallb]; now rewrite En, I2|].
    cbn [chain]. rewrite I3, andb_true_r. destruct h as [|x h]; [reflexivity|].
    now destruct (lines_hd _ _ _ _ E) as (r2 & ->).
Qed.

Lemma lines_nonl l : forallb (fun t => negb (is_nl_tok t)) l = true -> lines l = [l].
Proof.
  induction l as [|t r IH]; [reflexivity|]. cbn [forallb]. intros [H1 H2]%andb_true_iff.
  rewrite lines_cons by (intros ->; discriminate). now rewrite (IH H2).
Qed.

(* the layout [render] writes: one blank in front of every token but the first
   of its line and the one after a DATA payload *)
Fixpoint lay_line (ws : str) (l : list token) : list ltok :=
  match l with
  | [] => []
  | t :: r => (ws, t) :: lay_line (if is_data_tok t then [] else [32]) r
  end.

Fixpoint lay_lines (ls : list (list token)) : list ltok :=
  match ls with
  | [] => []
  | l :: ls' => lay_line [] l ++ ([], TNewline) :: lay_lines ls'
  end.

Lemma unlex_app l1 l2 tail : unlex (l1 ++ l2) tail = unlex l1 (unlex l2 tail).
Proof.
  induction l1 as [|[ws t] l1 IH]; [reflexivity|]. cbn [app unlex]. now rewrite IH.
Qed.

Lemma unlex_lay_line ws t r X :
  unlex (lay_line ws (t :: r)) X = ws ++ render_line (t :: r) ++ X.
Proof.
  revert ws t. induction r as [|t2 r IH]; intros ws t; [reflexivity|].
  change (render_line (t :: t2 :: r))
    with (text t ++ (if is_data_tok t then [] else [32]) ++ render_line (t2 :: r)).
  cbn [lay_line unlex] in *. now rewrite IH, <- !app_assoc.
Qed.

Lemma render_unlex ls : unlex (lay_lines ls) [] = render ls.
Proof.
  induction ls as [|l ls IH]; [reflexivity|].
  change (render (l :: ls)) with ((render_line l ++ [10]) ++ render ls).
  cbn [lay_lines]. rewrite unlex_app. cbn [unlex app text]. rewrite IH, <- app_assoc.
  destruct l as [|t r]; [reflexivity|]. now rewrite unlex_lay_line.
Qed.

Lemma map_snd_lay_line ws l : map snd (lay_line ws l) = l.
Proof.
  revert ws. induction l as [|t r IH]; intro ws; [reflexivity|].
  cbn [lay_line map snd]. now rewrite IH.
Qed.

Lemma stops_gap t c :
  c = 10 \/ (c = 32 /\ eol_kind t = false) -> stops t (Some c) = true.
Proof.
  destruct (eol_kind t) eqn:E.
  - intros [-> | [_ [=]]]. now rewrite (stops_eol t _ E).
  - intros [-> | [-> _]]; destruct t as [| ? ext suf | | ? [|] | [|x [|y ?]] | | | | |];
      try discriminate E; cbn -[ends_exp]; rewrite ?andb_false_r, ?orb_true_r; try reflexivity.
    all: try now destruct (is_nil ext), (is_nil suf).
    all: now destruct (is_relch x), (x =? 46), (x =? 38).
Qed.

Lemma follows_stops t t2 :
  follows t t2 = true -> is_nl_tok t2 = false ->
  stops t (hd_error ((if is_data_tok t then [] else [32]) ++ text t2)) = true.
Proof.
  unfold follows. intros Hf Hn. rewrite Hn, orb_false_r in Hf. destruct (eol_kind t) eqn:E.
  - apply andb_true_iff in Hf as [D C]. destruct t2; try discriminate C.
    destruct t; try discriminate D. cbn in *. now rewrite D.
  - assert (is_data_tok t = false) as -> by now destruct t.
    apply stops_gap. auto.
Qed.

Lemma lay_line_ok ws l :
  forallb is_blank ws = true -> line_ok l -> lay_ok (lay_line ws l) (Some 10) = true.
Proof.
  intros Hw (Hok & Hn & Hc). revert ws Hw Hn Hc.
  induction Hok as [|t r [Ht _] _ IH]; intros ws Hw; [reflexivity|].
  cbn [forallb chain lay_line lay_ok]. intros [_ Hn]%andb_true_iff [Hf Hc]%andb_true_iff.
  rewrite Hw, Ht, IH; [|now destruct (is_data_tok t)|exact Hn|exact Hc].
  destruct r as [|t2 r]; cbn [lay_line hd_lay]; [now rewrite stops_gap by auto|].
  apply andb_true_iff in Hn as [Hn _]. apply negb_true_iff in Hn.
  rewrite andb_true_r. exact (follows_stops t t2 Hf Hn).
Qed.

Lemma lay_lines_ok ls : Forall line_ok ls -> lay_ok (lay_lines ls) None = true.
Proof.
  induction 1 as [|l ls Hl _ IH]; [reflexivity|]. cbn [lay_lines].
  rewrite lay_ok_app. cbn [app hd_lay text hd_error lay_ok forallb tok_ok stops].
  now rewrite (lay_line_ok [] l eq_refl Hl), IH.
Qed.

Lemma normalise_lay_lines ls :
  Forall line_ok ls -> normalise (map snd (lay_lines ls)) = filter keep_line ls.
Proof.
  unfold normalise. induction 1 as [|l ls (Hn & Hl & _) _ IH]; [reflexivity|].
  cbn [lay_lines filter].
  rewrite map_app, map_cons, map_snd_lay_line, flat_map_app, (norm_ok_fixed l Hn).
  cbn [snd app flat_map norm_tok]. rewrite lines_app_nl, (lines_nonl l Hl).
  cbn [app filter]. destruct (keep_line l); [f_equal|]; exact IH.
Qed.

Lemma filter_idem {A} (f : A -> bool) l : filter f (filter f l) = filter f l.
Proof.
  induction l as [|a l IH]; [reflexivity|]. cbn [filter].
  destruct (f a) eqn:E; cbn [filter]; now rewrite ?E, IH.
Qed.

Theorem canon_render ls : Forall line_ok ls -> canon (render ls) = render (filter keep_line ls).
Proof.
  intro H. rewrite <- (render_unlex ls), (canon_layout _ [] (lay_lines_ok _ H) eq_refl).
  now rewrite (normalise_lay_lines _ H).
Qed.

Theorem normalise_line_ok s : Forall line_ok (normalise (lex s)).
Proof.
  unfold lex. destruct (lex_layout s) as [l tail] eqn:El. cbn [fst].
  destruct (lex_lay_ok _ _ _ El) as (_ & Hok & _). destruct (lay_chain _ _ Hok) as [A1 A2].
  apply (incl_Forall (incl_filter _ _)), lines_ok; [|now apply chain_norm].
  apply Forall_flat_map. revert A1. apply Forall_impl, norm_tok_norm.
Qed.
