(* Type- and stack-safety of the instruction semantics relative to the abstract
   stack effect [eff] (Models/Verifier.v): the core lemma of C03 and of the
   guarded totality statement of C07. *)
From Coq Require Import ZArith List Bool Lia.
From QV Require Import Sx Strs Fl Dec NumFmt Cell Using Print Machine Cpu Verifier.
Import ListNotations.
Open Scope Z_scope.

Lemma tys_cons_inv l a r : tys l = a :: r -> exists c l', l = c :: l' /\ cell_ty c = a /\ tys l' = r.
Proof. destruct l as [|c l']; simpl; intro H; [discriminate|]. inversion H; subst. eauto. Qed.

Lemma numeric_cases a : numeric a = true -> a = 1 \/ a = 2 \/ a = 3 \/ a = 4.
Proof. unfold numeric. lia. Qed.

Lemma cmp_str_some x : forall y, exists r, cmp_vals (CStr x) (CStr y) = Some r /\ (r = 0 \/ r = -1 \/ r = 1).
Proof.
  induction x as [|c x IH]; intros [|d y]; cbn; eauto.
  destruct (c <? d); [eauto|]. destruct (c >? d); [eauto|]. apply IH.
Qed.

Lemma fround_fin n m e : exists z, fround (FFin n m e) = Some z.
Proof. cbn. destruct (e >=? 0); eauto. Qed.

Definition blank_stack_pc (s : st) : st := set_pc (set_stack s []) 0.

Lemma blank_stack_pc_fields s s' :
  blank_stack_pc s' = blank_stack_pc s ->
  heap s' = heap s /\ cur s' = cur s /\ events s' = events s /\ halted s' = halted s /\ irq s' = irq s.
Proof. destruct s, s'. cbn. intro E. inversion E. auto. Qed.

Definition stk_post A := A -> list cell -> Z -> Prop.

(* A triple for the machine monad, with the states abstracted away: from ANY state with
   operand stack [l] and pc [p], [c] either returns [a] having changed nothing but stack and
   pc, which then satisfy [Q a], or stops with a value trap or ZeroDivisionError; it never
   raises a type trap or another host exception.  Instruction bodies are verified by walking
   their text with the rules below, so no state record is ever unfolded. *)
Definition stk {A} (c : M A) (Q : stk_post A) (l : list cell) (p : Z) : Prop :=
  forall s, stack s = l -> pc s = p ->
  match c s with
  | R a s' => blank_stack_pc s' = blank_stack_pc s /\ Q a (stack s') (pc s')
  | T code kw _ => ok_trap code = true /\ kw = true
  | ZD _ => True
  | X _ _ | NI _ => False
  end.

Lemma stk_ret {A} (a : A) (Q : stk_post A) l p : Q a l p -> stk (ret a) Q l p.
Proof. intros H s <- <-. cbn. auto. Qed.

Lemma stk_bind {A B} (c : M A) (f : A -> M B) (Q : stk_post B) l p :
  stk c (fun a => stk (f a) Q) l p -> stk (bind c f) Q l p.
Proof.
  intros H s Hl Hp. specialize (H s Hl Hp). unfold bind.
  destruct (c s) as [a s1| | | |]; auto.
  destruct H as [E H]. specialize (H s1 eq_refl eq_refl).
  destruct (f a s1); auto. rewrite <- E. exact H.
Qed.

(* the pops are stated with what follows them, to save the walk a step at each *)
Lemma stk_pop {B} (f : cell -> M B) (Q : stk_post B) c r p :
  stk (f c) Q r p -> stk (bind pop f) Q (c :: r) p.
Proof. intro H. apply stk_bind. intros s Hl <-. unfold pop. rewrite Hl. destruct s; cbn in *. auto. Qed.

Lemma stk_push_cell c (Q : stk_post unit) l p : Q tt (c :: l) p -> stk (push_cell c) Q l p.
Proof. intros H s <- <-. destruct s; cbn. auto. Qed.

Lemma stk_trap {A} code (Q : stk_post A) l p : ok_trap code = true -> stk (trap code) Q l p.
Proof. intros H s _ _. cbn. auto. Qed.

Lemma stk_zd {A} (Q : stk_post A) l p : stk (fun s => ZD s) Q l p.
Proof. intros s _ _. exact I. Qed.

Lemma stk_jump t (Q : stk_post unit) l p : Q tt l t -> stk (modify (fun s => set_pc s t)) Q l p.
Proof. intros H s <- _. destruct s; cbn. auto. Qed.

(* CellValue(ty, v) can be built: never the TypeError / ValueError branches of mk_cell *)
Definition boxable (ty : Z) (v : pyval) : bool :=
  match v with
  | PInt _ => numeric ty
  | PFlt _ => (ty =? 3) || (ty =? 4)
  | PStrV _ => ty =? 5
  end.

Lemma stk_push ty v (Q : stk_post unit) l p :
  boxable ty v = true -> (forall c, tys (c :: l) = ty :: tys l -> Q tt (c :: l) p) -> stk (push ty v) Q l p.
Proof.
  intros Hb H. apply stk_bind.
  assert (Hc : forall c, cell_ty c = ty -> stk (ret c) (fun c => stk (push_cell c) Q) l p).
  { intros c <-. apply stk_ret, stk_push_cell, H. reflexivity. }
  assert (Ht : stk (trap T_INVALID_CELL_VALUE) (fun c => stk (push_cell c) Q) l p) by now apply stk_trap.
  destruct v as [z|f|x]; cbn in Hb.
  - apply numeric_cases in Hb as [-> | [-> | [-> | ->]]]; cbn.
    + destruct (in_int z); auto.
    + destruct (in_long z); auto.
    + destruct (to_single (of_Z z)); auto.
    + auto.
  - assert (E : ty = 3 \/ ty = 4) by lia. destruct E as [-> | ->]; cbn.
    + destruct (to_single f); auto.
    + auto.
  - assert (ty = 5) as -> by lia. cbn. auto.
Qed.

Lemma stk_pop_ty ty (Q : stk_post cell) c r p : cell_ty c = ty -> Q c r p -> stk (pop_ty ty) Q (c :: r) p.
Proof.
  intros E H. apply stk_pop. rewrite E, Z.eqb_refl. now apply stk_ret.
Qed.

Lemma stk_pop_int {B} (f : Z -> M B) (Q : stk_post B) z r p :
  stk (f z) Q r p -> stk (bind pop_int f) Q (CI z :: r) p.
Proof. intro H. apply stk_bind, stk_bind, stk_pop_ty; [reflexivity|]. now apply stk_ret. Qed.

Lemma stk_pop_long {B} (f : Z -> M B) (Q : stk_post B) z r p :
  stk (f z) Q r p -> stk (bind pop_long f) Q (CL z :: r) p.
Proof. intro H. apply stk_bind, stk_bind, stk_pop_ty; [reflexivity|]. now apply stk_ret. Qed.

Lemma stk_pop_str {B} (f : str -> M B) (Q : stk_post B) x r p :
  stk (f x) Q r p -> stk (bind pop_str f) Q (CStr x :: r) p.
Proof. intro H. apply stk_bind, stk_bind, stk_pop_ty; [reflexivity|]. now apply stk_ret. Qed.

Definition pc_post (i : instr) (p p' : Z) : Prop :=
  match i with IJmp t => p' = t | IJz t => p' = t \/ p' = p | _ => p' = p end.

(* A rule that asks two cells for equal types gets two cells of the same form. *)
Inductive same_ty : cell -> cell -> Prop :=
| same_I x y : same_ty (CI x) (CI y)
| same_L x y : same_ty (CL x) (CL y)
| same_S f g : same_ty (CS f) (CS g)
| same_D f g : same_ty (CD f) (CD g)
| same_Str x y : same_ty (CStr x) (CStr y)
| same_Ref g i h j : same_ty (CRef g i) (CRef h j).

Lemma cell_ty_same a b : (cell_ty a =? cell_ty b) = true -> same_ty a b.
Proof. destruct a, b; try discriminate; constructor. Qed.

(* where the test fails the goal is True, up to computation *)
Ltac eff_simpl :=
  first [exact I
        | cbn [cell_ty numeric integral Z.leb Z.eqb Z.compare Pos.compare Pos.compare_cont Pos.eqb andb orb]].

(* The goal is [match e with Some t' => _ | None => True end], e being eff i (map cell_ty l)
   unfolded.  What the next test of the typing rule says about the stack: a cell is there; two
   cells are of the same form; a cell has one of the forms the test admits (the cells no test
   mentions stay variables); an operand of the instruction passes. *)
Ltac eff_test :=
  lazymatch goal with
  | |- match ?e with Some _ => _ | None => True end =>
    lazymatch e with
    | context[match map cell_ty ?l with _ => _ end] => destruct l as [|? ?]; [exact I | cbn [map]]
    | context[cell_ty ?a =? cell_ty ?b] =>
      let E := fresh in
      destruct (cell_ty a =? cell_ty b) eqn:E; [|exact I];
      apply cell_ty_same in E; destruct E; eff_simpl
    | context[cell_ty ?c =? ?x] =>
      tryif is_var x then destruct (Z.eqb_spec (cell_ty c) x) as [<-|_]; eff_simpl else destruct c; eff_simpl
    | context[if ?b then _ else _] =>
      lazymatch b with
      | context[cell_ty ?c] => destruct c; eff_simpl
      | _ => destruct b eqn:?; [|exact I]
      end
    end
  end.

(* dupl alone among these instructions reads the state (get), and only its stack: a rule for
   the instruction, none for get *)
Lemma stk_dupl m (Q : stk_post unit) c r p : Q tt (c :: c :: r) p -> stk (exec m IDupl) Q (c :: r) p.
Proof. intros H s Hl Hp. unfold exec, bind, get. rewrite Hl. exact (stk_push_cell c Q _ _ H s Hl Hp). Qed.

Lemma boxable_num ty z :
  numeric ty = true -> boxable ty (if (ty =? 3) || (ty =? 4) then PFlt (of_Z z) else PInt z) = true.
Proof. intro H. destruct ((ty =? 3) || (ty =? 4)) eqn:E; cbn; auto. Qed.

Ltac stk_step :=
  lazymatch goal with
  (* an instruction: dupl by its lemma, any other by the first construct of its body *)
  | |- stk (exec _ IDupl) _ _ _ => apply stk_dupl
  | |- stk (exec _ _) _ _ _ => unfold exec, bitwise, arith_prelude, push_opt; stk_step
  | |- stk (bind pop _) _ _ _ => apply stk_pop
  | |- stk (bind pop_int _) _ _ _ => apply stk_pop_int
  | |- stk (bind pop_long _) _ _ _ => apply stk_pop_long
  | |- stk (bind pop_str _) _ _ _ => apply stk_pop_str
  | |- stk (bind _ _) _ _ _ => apply stk_bind
  | |- stk (pop_ty _) _ _ _ => apply stk_pop_ty; [reflexivity|]
  | |- stk (ret _) _ _ _ => apply stk_ret
  | |- stk (push_cell _) _ _ _ => apply stk_push_cell
  | |- stk (repush _) _ _ _ => apply stk_push_cell
  | |- stk (push _ _) _ _ _ =>
    apply stk_push;
    [ first [reflexivity | assumption | now apply boxable_num | unfold numeric in *; cbn [boxable]; lia] | intros ? ?]
  | |- stk (trap _) _ _ _ => apply stk_trap; reflexivity
  | |- stk (fun s => ZD s) _ _ _ => apply stk_zd
  | |- stk (modify (fun s => set_pc s _)) _ _ _ => apply stk_jump
  | |- stk (if ?b then _ else _) _ _ _ => destruct b eqn:?
  | |- stk (match fround (FFin ?n ?m ?e) with _ => _ end) _ _ _ => destruct (fround_fin n m e) as [? ->]
  | |- stk (match cmp_vals (CStr ?x) (CStr ?y) with _ => _ end) _ _ _ => destruct (cmp_str_some x y) as (? & -> & _)
  | |- stk (match cmp_vals _ _ with _ => _ end) _ _ _ => cbn [cmp_vals]
  | |- stk (match ?x with _ => _ end) _ _ _ => destruct x
  end.

Ltac stk_simpl :=
  cbn [pv is_numeric is_integral cell_ty negb Z.eqb Pos.eqb andb orb py_add py_sub py_mul ffloor num_text].

(* Stated on the value of eff, so that nothing has to be inverted: the rule is evaluated on the
   stack as its tests reveal it. *)
Lemma eff_stk m i l p :
  match eff i (tys l) with
  | Some t' => stk (exec m i) (fun _ l' p' => tys l' = t' /\ pc_post i p p') l p
  | None => True
  end.
Proof.
  unfold tys. destruct i; try exact I; cbn [eff pc_post].
  all: repeat eff_test.
  (* walk the instruction's body: the rule of its first construct, then the type tests on the
     cells now known (only where that changes the goal: every reduction is checked again at Qed);
     left are the result types, those after a push as its rule gives them, and the pc *)
  all: repeat (stk_step; try progress stk_simpl).
  all: split; [assumption || reflexivity | auto].
Qed.

Lemma eff_exec m i l p t' :
  eff i (tys l) = Some t' -> stk (exec m i) (fun _ l' p' => tys l' = t' /\ pc_post i p p') l p.
Proof. intro H. pose proof (eff_stk m i l p) as E. rewrite H in E. exact E. Qed.

Definition safe_out (i : instr) (s : st) (t' : list Z) (o : out unit) : Prop :=
  match o with
  | R _ s' => tys (stack s') = t' /\ heap s' = heap s /\ cur s' = cur s /\ events s' = events s
  | T c kw _ => ok_trap c = true /\ kw = true
  | ZD _ => True
  | X _ _ => crash_guard i (stack s) = true
  | NI _ => False
  end.

Theorem eff_sound m i s t' : eff i (tys (stack s)) = Some t' -> safe_out i s t' (exec m i s).
Proof.
  intro H. pose proof (eff_exec m i _ (pc s) _ H s eq_refl eq_refl) as E. unfold safe_out.
  destruct (exec m i s); auto; try contradiction.
  destruct E as (Er & Et & _). apply blank_stack_pc_fields in Er. intuition.
Qed.

Fixpoint exec_list (m : module) (l : list instr) : M unit :=
  match l with
  | [] => ret tt
  | i :: r => bind (exec m i) (fun _ => exec_list m r)
  end.

Definition block_out (l : list instr) (s : st) (t' : list Z) (o : out unit) : Prop :=
  match o with
  | R _ s' => tys (stack s') = t' /\ heap s' = heap s /\ cur s' = cur s /\ events s' = events s
  | T c kw _ => ok_trap c = true /\ kw = true
  | ZD _ => True
  | X _ _ => False
  | NI _ => False
  end.

Lemma block_safe m l : forall s t',
  eff_list l (tys (stack s)) = Some t' -> block_out l s t' (exec_list m l s).
Proof.
  induction l as [|i l IH]; intros s t' H.
  - cbn in *. inversion H; subst. cbn. auto.
  - cbn [eff_list] in H. destruct (eff i (tys (stack s))) as [t1|] eqn:E; [|discriminate].
    pose proof (eff_sound m i s t1 E) as Hs.
    (* every outcome but a return is that of the block *)
    cbn [exec_list]. unfold bind. destruct (exec m i s) as [u s1| | | |]; cbn in Hs |- *; trivial; [|discriminate Hs].
    destruct Hs as (Ht & Hh & Hc & He). rewrite <- Ht in H. specialize (IH s1 t' H).
    destruct (exec_list m l s1); cbn in IH |- *; trivial.
    destruct IH as (A & B & C & D). repeat split; congruence.
Qed.

Lemma ok_trap_not_type_confusion c :
  ok_trap c = true -> c <> T_TYPE_MISMATCH /\ c <> T_STACK_EMPTY /\ c <> T_INVALID_OP_CODE /\
                      c <> T_INVALID_VAR_IDX /\ c <> T_NULL_REFERENCE.
Proof.
  unfold ok_trap. intro H. apply orb_true_iff in H as [H|H]; apply Z.eqb_eq in H; subst;
    repeat split; discriminate.
Qed.

From QV Require Import ErrProofs.

Lemma stack_pre_exec s size : stack (pre_exec s size) = stack s.
Proof. destruct s; reflexivity. Qed.

Lemma ttarget_set_trapped s a : ttarget_ (set_trapped_addr s a) = ttarget_ s.
Proof. destruct s; reflexivity. Qed.

(* the hypotheses on ttarget_: with RESUME NEXT armed a trap runs exec_errres, which need not
   end in Next (do_trap_total) *)
Theorem tick_total_on_typed_stack_instr m s i size t' :
  in_code m s ->
  decode (skipn (Z.to_nat (pc s)) (m_code m)) = DOk i size ->
  eff i (tys (stack s)) = Some t' ->
  (forall s3 c kw, exec m i (pre_exec s size) = T c kw s3 -> ttarget_ s3 <> TNext) ->
  (forall s3, exec m i (pre_exec s size) = ZD s3 -> ttarget_ s3 <> TNext) ->
  exists s', tick m s = Next s'.
Proof.
  intros Hc Hd He HT HZ.
  assert (Hn : forall idx, i <> IPushStr idx) by (intros idx ->; discriminate He).
  rewrite <- (stack_pre_exec s size) in He.
  pose proof (eff_sound m i (pre_exec s size) t' He) as Hs.
  rewrite (tick_exec m s i size Hc Hd Hn). apply end_check_next.
  destruct (exec m i (pre_exec s size)) as [u s3|c kw s3|s3|k s3|s3] eqn:E; cbn in Hs.
  - eauto.
  - destruct Hs as [_ ->]. apply do_trap_total. rewrite ttarget_set_trapped. eapply HT. reflexivity.
  - apply do_trap_total. rewrite ttarget_set_trapped. eapply HZ. reflexivity.
  - discriminate Hs.
  - contradiction.
Qed.
