(* C15, text part: the model of parse_data accepts exactly the texts generated
   by the item grammar of Models/DataSpec.v and returns their items. *)
From Coq Require Import ZArith List Bool.
From QV Require Import Sx Strs DataText DataSpec.
Import ListNotations.
Open Scope Z_scope.

Lemma str_eqb_refl s : str_eqb s s = true.
Proof. now apply str_eqb_eq. Qed.

Lemma forallb_snoc {A} (p : A -> bool) l a :
  forallb p l = true -> p a = true -> forallb p (l ++ [a]) = true.
Proof. intros Hl Ha. rewrite forallb_app, Hl. simpl. now rewrite Ha. Qed.

Lemma last_ch_snoc s c : last_ch (s ++ [c]) = Some c.
Proof. unfold last_ch. now rewrite rev_app_distr. Qed.

Lemma last_ch_inv s :
  match last_ch s with Some d => exists t, s = t ++ [d] | None => s = [] end.
Proof.
  unfold last_ch. pose proof (rev_involutive s) as E.
  destruct (rev s) as [|d t]; simpl in E; subst s; [reflexivity | now exists (rev t)].
Qed.

Lemma drop_while_end_snoc p s c :
  drop_while_end p (s ++ [c]) = if p c then drop_while_end p s else s ++ [c].
Proof.
  unfold drop_while_end. rewrite rev_app_distr. simpl.
  destruct (p c); [reflexivity|]. simpl. now rewrite rev_involutive.
Qed.

Lemma drop_while_end_all p a b :
  forallb p b = true -> drop_while_end p (a ++ b) = drop_while_end p a.
Proof.
  induction b as [|c b IH] using rev_ind; intro H; [now rewrite app_nil_r|].
  rewrite forallb_app in H. apply andb_true_iff in H as [Hb Hc]. simpl in Hc.
  rewrite andb_true_r in Hc. rewrite app_assoc, drop_while_end_snoc, Hc. now apply IH.
Qed.

Lemma blank_cases (P : Z -> Prop) : P ch_space -> P ch_tab -> forall c, is_blank c = true -> P c.
Proof. intros Hs Ht c H. apply orb_true_iff in H as [H|H]; apply Z.eqb_eq in H; now subst. Qed.

Lemma all_blank_forallb (q : Z -> bool) w :
  q ch_space = true -> q ch_tab = true -> all_blank w = true -> forallb q w = true.
Proof.
  intros Hs Ht H. apply forallb_forall. intros c Hc.
  exact (blank_cases (fun c => q c = true) Hs Ht c (proj1 (forallb_forall _ w) H c Hc)).
Qed.

Lemma all_blank_py_space w : all_blank w = true -> forallb is_py_space w = true.
Proof. now apply all_blank_forallb. Qed.

Lemma all_blank_no_comma w : all_blank w = true -> no_char ch_comma w = true.
Proof. now apply all_blank_forallb. Qed.

Lemma blank_not_quote c : is_blank c = true -> (c =? ch_quote) = false.
Proof. revert c. apply blank_cases; reflexivity. Qed.

Lemma plain_text_app a b : plain_text (a ++ b) = plain_text a && plain_text b.
Proof. apply forallb_app. Qed.

Lemma no_char_app c a b : no_char c (a ++ b) = no_char c a && no_char c b.
Proof. apply forallb_app. Qed.

Lemma plain_ok_inv u :
  plain_ok u = true ->
  exists c r t d, u = c :: r /\ u = t ++ [d] /\ is_blank c = false /\ is_blank d = false /\
                  (c =? ch_quote) = false /\ no_char ch_comma u = true.
Proof.
  destruct u as [|c r]; [discriminate|]. unfold plain_ok.
  pose proof (last_ch_inv (c :: r)) as Hl. destruct (last_ch (c :: r)) as [d|]; [|discriminate].
  destruct Hl as [t Hl]. intro H. repeat (apply andb_true_iff in H as [H ?]).
  exists c, r, t, d. repeat split; try assumption; now apply negb_true_iff.
Qed.

Lemma plain_char c s :
  plain_text s = true -> In c s -> is_blank c = false -> is_py_space c = false.
Proof.
  intros H Hin Hb. apply (proj1 (forallb_forall _ s) H) in Hin.
  rewrite Hb, orb_false_r in Hin. now apply negb_true_iff.
Qed.

Lemma py_strip_plain u w :
  plain_ok u = true -> plain_text u = true -> all_blank w = true -> py_strip (u ++ w) = u.
Proof.
  intros Hu Hp Hw. destruct (plain_ok_inv u Hu) as (c & r & t & d & E1 & E2 & Hc & Hd & _).
  unfold py_strip. replace (drop_while is_py_space (u ++ w)) with (u ++ w).
  - rewrite drop_while_end_all by now apply all_blank_py_space.
    rewrite E2, drop_while_end_snoc, (plain_char d u Hp); [reflexivity | | exact Hd].
    rewrite E2. apply in_or_app. right. now left.
  - rewrite E1. simpl. rewrite (plain_char c u Hp); [reflexivity | rewrite E1; now left | exact Hc].
Qed.

Lemma pd_run_app q a b :
  pd_run q (a ++ b) = match pd_run q a with Some q' => pd_run q' b | None => None end.
Proof.
  revert q; induction a as [|c a IH]; intro q; simpl; [reflexivity|].
  destruct (pd_step q c); [apply IH | reflexivity].
Qed.

Lemma run_blanks s w items item :
  s = PBefore \/ s = PAfter -> all_blank w = true ->
  pd_run (s, items, item) w = Some (s, items, item).
Proof.
  intros Hs. induction w as [|c w IH]; simpl; intro H; [reflexivity|].
  apply andb_true_iff in H as [H1 H2]. destruct Hs as [->| ->]; cbn [pd_step]; rewrite H1; now apply IH.
Qed.

Lemma run_inside s close t items item :
  (s = PUnq /\ close = ch_comma) \/ (s = PQuo /\ close = ch_quote) -> no_char close t = true ->
  pd_run (s, items, item) t = Some (s, items, item ++ t).
Proof.
  intro Hs. revert item; induction t as [|c t IH]; simpl; intros item H.
  - now rewrite app_nil_r.
  - apply andb_true_iff in H as [H1 H2]. apply negb_true_iff in H1.
    destruct Hs as [[-> ->]|[-> ->]]; cbn [pd_step]; rewrite H1, IH by exact H2;
      rewrite <- app_assoc; reflexivity.
Qed.

Lemma run_field_empty w items :
  all_blank w = true ->
  pd_run (PBefore, items, []) w = Some (PBefore, items, []).
Proof. apply run_blanks. now left. Qed.

Definition after_field (f : field) (items : list ditem) : pstate :=
  match f with
  | FEmpty _ => (PBefore, items, [])
  | FPlain _ u w2 => (PUnq, items, u ++ w2)
  | FQuoted _ q _ => (PAfter, items ++ [DItem q], [])
  | FOpen _ q => (PQuo, items, q)
  end.

Lemma run_field f items :
  field_ok f = true ->
  pd_run (PBefore, items, []) (render_field f) = Some (after_field f items).
Proof.
  assert (Hquo : forall w1 q, all_blank w1 = true -> no_char ch_quote q = true ->
            pd_run (PBefore, items, []) (w1 ++ ch_quote :: q) = Some (PQuo, items, q)).
  { intros w1 q H1 Hq. rewrite pd_run_app, run_field_empty by exact H1.
    apply (run_inside PQuo ch_quote); [right; split; reflexivity | exact Hq]. }
  destruct f as [w|w1 u w2|w1 q w2|w1 q]; cbn [field_ok render_field after_field]; intro Hok.
  - now apply run_field_empty.
  - apply andb_true_iff in Hok as [Hok H2]. apply andb_true_iff in Hok as [H1 Hu].
    destruct (plain_ok_inv u Hu) as (c & r & _ & _ & -> & _ & Hb & _ & Hq & Hc).
    rewrite pd_run_app, run_field_empty by exact H1.
    cbn [no_char forallb] in Hc. apply andb_true_iff in Hc as [Hc1 Hc2].
    apply negb_true_iff in Hc1. cbn [app pd_run pd_step]. rewrite Hb, Hq, Hc1.
    apply (run_inside PUnq ch_comma _ _ [c]); [left; split; reflexivity|].
    now rewrite no_char_app, (all_blank_no_comma _ H2), andb_true_r.
  - apply andb_true_iff in Hok as [Hok H2]. apply andb_true_iff in Hok as [H1 Hq].
    change (w1 ++ ch_quote :: q ++ ch_quote :: w2) with (w1 ++ (ch_quote :: q) ++ ch_quote :: w2).
    rewrite app_assoc, pd_run_app, (Hquo w1 q H1 Hq).
    apply (run_blanks PAfter); [now right | exact H2].
  - apply andb_true_iff in Hok as [H1 Hq]. now apply Hquo.
Qed.

Lemma after_field_comma f items :
  is_open f = false ->
  pd_step (after_field f items) ch_comma = Some (PBefore, pd_finish (after_field f items), []).
Proof. destruct f; [reflexivity..|discriminate]. Qed.

(* the item the code returns for a field: an unquoted one goes through str.strip() *)
Definition code_item (f : field) : ditem :=
  match f with
  | FPlain _ u w2 => DItem (py_strip (u ++ w2))
  | _ => item_of f
  end.

Lemma after_field_finish f items : pd_finish (after_field f items) = items ++ [code_item f].
Proof. destruct f; reflexivity. Qed.

Lemma render_cons f g r : render (f :: g :: r) = render_field f ++ ch_comma :: render (g :: r).
Proof. reflexivity. Qed.

Lemma fields_ok_cons f g r :
  fields_ok (f :: g :: r) = field_ok f && negb (is_open f) && fields_ok (g :: r).
Proof. reflexivity. Qed.

Lemma render_parse_from fs : forall items,
  fields_ok fs = true ->
  option_map pd_finish (pd_run (PBefore, items, []) (render fs)) = Some (items ++ map code_item fs).
Proof.
  induction fs as [|f r IH]; intros items Hok; [discriminate|].
  destruct r as [|g r].
  - cbn [fields_ok render] in *. rewrite (run_field f items Hok). cbn [option_map].
    now rewrite after_field_finish.
  - rewrite fields_ok_cons in Hok. apply andb_true_iff in Hok as [Hok Hr].
    apply andb_true_iff in Hok as [Hf Hop]. apply negb_true_iff in Hop.
    rewrite render_cons, pd_run_app, (run_field f items Hf). cbn [pd_run].
    rewrite (after_field_comma f items Hop), after_field_finish, (IH _ Hr).
    now rewrite <- app_assoc.
Qed.

(* every rendering of a well-formed field list is accepted, whatever its characters *)
Theorem render_parse_code fs :
  fields_ok fs = true -> parse_data (render fs) = Some (map code_item fs).
Proof. exact (render_parse_from fs []). Qed.

(* in a plain text str.strip() takes the blanks off the unquoted item and nothing else *)
Lemma code_item_plain f :
  field_ok f = true -> plain_text (render_field f) = true -> code_item f = item_of f.
Proof.
  destruct f as [w|w1 u w2|w1 q w2|w1 q]; try reflexivity.
  cbn [field_ok render_field code_item item_of]. rewrite !plain_text_app. intros Hok Hpl.
  apply andb_true_iff in Hok as [Hok Hw]. apply andb_true_iff in Hok as [_ Hu].
  apply andb_true_iff in Hpl as [_ Hpl]. apply andb_true_iff in Hpl as [Hp _].
  f_equal. now apply py_strip_plain.
Qed.

Theorem data_render_parse fs :
  fields_ok fs = true -> plain_text (render fs) = true ->
  parse_data (render fs) = Some (map item_of fs).
Proof.
  intros Hok Hpl. rewrite (render_parse_code fs Hok). f_equal.
  induction fs as [|f r IH]; [reflexivity|]. destruct r as [|g r].
  - cbn [map]. now rewrite code_item_plain.
  - rewrite fields_ok_cons in Hok. apply andb_true_iff in Hok as [Hok Hr].
    apply andb_true_iff in Hok as [Hf _].
    rewrite render_cons, plain_text_app in Hpl. apply andb_true_iff in Hpl as [Hp1 Hp2].
    cbn [map]. rewrite (code_item_plain f Hf Hp1). f_equal. apply IH; [exact Hr|].
    now apply andb_true_iff in Hp2 as [_ Hp2].
Qed.

(* Every accepted text is the rendering of a well-formed field list; what its items are
   then follows from the other direction.  So the invariant speaks of the text only: the
   text of the field being read is a well-formed field, and its form tells the state. *)
Definition field_state (f : field) : pst :=
  match f with
  | FEmpty _ => PBefore
  | FPlain _ _ _ => PUnq
  | FQuoted _ _ _ => PAfter
  | FOpen _ _ => PQuo
  end.

Lemma plain_ok_snoc u w c :
  plain_ok u = true -> all_blank w = true -> is_blank c = false -> (c =? ch_comma) = false ->
  plain_ok (u ++ w ++ [c]) = true.
Proof.
  intros Hu Hw Eb Ec. destruct u as [|c0 r]; [discriminate|].
  unfold plain_ok in Hu. rewrite !andb_true_iff in Hu. destruct Hu as [[[Hb Hq] Hc] _].
  cbn [app]. unfold plain_ok. rewrite app_comm_cons, app_assoc, last_ch_snoc, !no_char_app.
  rewrite Hb, Hq, Hc, (all_blank_no_comma _ Hw), Eb. cbn. now rewrite Ec.
Qed.

Lemma field_step f items item c :
  field_ok f = true ->
  match pd_step (field_state f, items, item) c with
  | Some (s', _, _) =>
    (exists f', field_ok f' = true /\ render_field f' = render_field f ++ [c] /\
                field_state f' = s')
    \/ ((c =? ch_comma) = true /\ is_open f = false /\ s' = PBefore)
  | None => True
  end.
Proof.
  destruct f as [w|w1 u w2|w1 q w2|w1 q];
    cbn [field_ok field_state pd_step render_field is_open]; intro Hok.
  - destruct (is_blank c) eqn:Eb; [|destruct (c =? ch_comma) eqn:Ec; [|destruct (c =? ch_quote) eqn:Eq]].
    + left. exists (FEmpty (w ++ [c])). repeat split. now apply forallb_snoc.
    + now right.
    + apply Z.eqb_eq in Eq. subst c. left. exists (FOpen w []). cbn. now rewrite Hok.
    + left. exists (FPlain w [c] []). cbn. now rewrite Hok, Eb, Eq, Ec.
  - apply andb_true_iff in Hok as [Hok H2]. apply andb_true_iff in Hok as [H1 Hu].
    destruct (c =? ch_comma) eqn:Ec; [now right | left]. destruct (is_blank c) eqn:Eb.
    + exists (FPlain w1 u (w2 ++ [c])). cbn. rewrite H1, Hu, <- !app_assoc.
      repeat split. now apply forallb_snoc.
    + exists (FPlain w1 (u ++ w2 ++ [c]) []). cbn. rewrite H1, plain_ok_snoc by assumption.
      now rewrite app_nil_r, <- !app_assoc.
  - apply andb_true_iff in Hok as [Hok H2].
    destruct (is_blank c) eqn:Eb; [|destruct (c =? ch_comma) eqn:Ec; [now right | exact I]].
    left. exists (FQuoted w1 q (w2 ++ [c])). cbn. rewrite Hok, <- !app_assoc. cbn [app].
    rewrite <- !app_assoc. repeat split. now apply forallb_snoc.
  - apply andb_true_iff in Hok as [H1 Hq]. destruct (c =? ch_quote) eqn:Eq; left.
    + apply Z.eqb_eq in Eq. subst c. exists (FQuoted w1 q []). cbn.
      now rewrite H1, Hq, <- app_assoc.
    + exists (FOpen w1 (q ++ [c])). cbn. rewrite H1, <- app_assoc. repeat split.
      apply forallb_snoc; [exact Hq | now rewrite Eq].
Qed.

Lemma parse_fields_from t : forall f items item,
  field_ok f = true ->
  match pd_run (field_state f, items, item) t with
  | Some _ => exists fs, fields_ok fs = true /\ render fs = render_field f ++ t
  | None => True
  end.
Proof.
  induction t as [|c t IH]; intros f items item Hf; cbn [pd_run].
  - exists [f]. split; [exact Hf | now rewrite app_nil_r].
  - pose proof (field_step f items item c Hf) as Hs.
    destruct (pd_step (field_state f, items, item) c) as [[[s' items'] item']|]; [|exact I].
    destruct Hs as [[f' [Hf' [Er <-]]] | [Ec [Ho ->]]].
    + replace (render_field f ++ c :: t) with (render_field f' ++ t)
        by now rewrite Er, <- app_assoc.
      now apply IH.
    + (* the field is complete, and what follows the comma is a field list of its own *)
      apply Z.eqb_eq in Ec. subst c. specialize (IH (FEmpty []) items' item' eq_refl).
      destruct (pd_run _ t); [|exact I]. destruct IH as [[|g r] [Hr Er]]; [discriminate|].
      exists (f :: g :: r). rewrite fields_ok_cons, render_cons, Hf, Ho, Hr, Er.
      split; reflexivity.
Qed.

Lemma parse_fields t items :
  parse_data t = Some items -> exists fs, fields_ok fs = true /\ render fs = t.
Proof.
  unfold parse_data, pd_init. intro H.
  pose proof (parse_fields_from t (FEmpty []) [] [] eq_refl) as Hfs. cbn [field_state] in Hfs.
  destruct (pd_run _ t); [exact Hfs | discriminate H].
Qed.

Theorem data_parse_render t items :
  plain_text t = true -> parse_data t = Some items -> data_items_spec t items.
Proof.
  intros Hpl H. destruct (parse_fields t items H) as [fs [Hok <-]].
  exists fs. split; [exact Hok|]. split; [reflexivity|].
  rewrite (data_render_parse fs Hok Hpl) in H. now injection H.
Qed.
