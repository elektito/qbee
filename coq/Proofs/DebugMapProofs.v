(* Specification and proofs for Models/DebugMap.v (property C11). *)
From Coq Require Import ZArith List Bool Lia.
From QV Require Import DebugMap.
Import ListNotations.
Open Scope Z_scope.

Fixpoint size (l : list item) : Z :=
  match l with
  | [] => 0
  | Ins sz :: r => sz + size r
  | _ :: r => size r
  end.

(* Well-nested marker streams, as a balanced-parentheses grammar: this is how
   BaseCodeGen.gen_code_for_node emits a statement:
       Start n; (instructions, empty-block markers, nested statements)*; End n *)
Inductive wf_markers : list item -> Prop :=
| wf_nil : wf_markers []
| wf_ins sz l : 0 < sz -> wf_markers l -> wf_markers (Ins sz :: l)
| wf_empty l : wf_markers l -> wf_markers (EmptyBlock :: l)
| wf_node n body l :
    wf_markers body -> wf_markers l -> wf_markers (Start n :: body ++ End n :: l).

Fixpoint ins_starts (off : Z) (l : list item) : list Z :=
  match l with
  | [] => []
  | Ins sz :: r => off :: ins_starts (off + sz) r
  | _ :: r => ins_starts off r
  end.

Definition on_boundary (off : Z) (l : list item) (x : Z) : Prop :=
  In x (ins_starts off l) \/ x = off + size l.

(* two half-open ranges are nested or disjoint *)
Definition laminar (s1 e1 s2 e2 : Z) : Prop :=
  (s1 <= s2 /\ e2 <= e1) \/ (s2 <= s1 /\ e1 <= e2) \/ e1 <= s2 \/ e2 <= s1.

Definition rec_laminar (a b : rec) : Prop :=
  laminar (r_start a) (r_end a) (r_start b) (r_end b).

Definition nodes_at (off : Z) (l : list item) : list cnode :=
  match run (cinit off) l with COk s => c_nodes s | _ => [] end.
Definition empties_at (off : Z) (l : list item) : list Z :=
  match run (cinit off) l with COk s => c_empty s | _ => [] end.

Lemma size_app a b : size (a ++ b) = size a + size b.
Proof.
  induction a as [|i a IH]; simpl; [lia|]. destruct i; rewrite ?IH; lia.
Qed.

Lemma wf_size_nonneg l : wf_markers l -> 0 <= size l.
Proof.
  induction 1; simpl; try lia. rewrite size_app. simpl. lia.
Qed.

Lemma wf_app a b : wf_markers a -> wf_markers b -> wf_markers (a ++ b).
Proof.
  induction 1; intros Hb; simpl; auto using wf_ins, wf_empty.
  rewrite <- app_assoc. simpl. constructor; auto.
Qed.

Lemma wf_single n body : wf_markers body -> wf_markers (Start n :: body ++ [End n]).
Proof. intros. constructor; auto. constructor. Qed.

Lemma run_app s a b :
  run s (a ++ b) = match run s a with COk s' => run s' b | e => e end.
Proof.
  revert s. induction a as [|i a IH]; intros s; simpl; [reflexivity|].
  destruct (step s i); auto.
Qed.

(* frame property: a well-nested stream leaves the stack as it found it and
   only appends to the two result lists, by amounts that depend on the
   current offset alone *)
Lemma run_wf l : wf_markers l -> forall off, exists ns es, forall st ns0 es0,
  run (mkC off st ns0 es0) l = COk (mkC (off + size l) st (ns0 ++ ns) (es0 ++ es)).
Proof.
  induction 1 as [|sz l Hsz Hl IH|l Hl IH|n body l Hb IHb Hl IHl]; intros off.
  - exists [], []. intros. simpl. rewrite !app_nil_r, Z.add_0_r. reflexivity.
  - destruct (IH (off + sz)) as (ns & es & E). exists ns, es. intros. simpl.
    rewrite E, Z.add_assoc. reflexivity.
  - destruct (IH off) as (ns & es & E). exists ns, (off :: es). intros. simpl.
    rewrite E, <- app_assoc. reflexivity.
  - destruct (IHb off) as (nb & eb & Eb). destruct (IHl (off + size body)) as (nl & el & El).
    exists (nb ++ (n, off, off + size body) :: nl), (eb ++ el). intros. simpl.
    rewrite run_app, Eb. simpl. rewrite Z.eqb_refl, El, size_app. simpl.
    rewrite <- !app_assoc, Z.add_assoc. reflexivity.
Qed.

Lemma run_frame l : wf_markers l -> forall s,
  run s l = COk (mkC (c_off s + size l) (c_stack s)
                     (c_nodes s ++ nodes_at (c_off s) l)
                     (c_empty s ++ empties_at (c_off s) l)).
Proof.
  intros H [off st ns0 es0]. destruct (run_wf l H off) as (ns & es & E).
  unfold nodes_at, empties_at, cinit. rewrite !E. reflexivity.
Qed.

Lemma run_cinit l off : wf_markers l ->
  run (cinit off) l = COk (mkC (off + size l) [] (nodes_at off l) (empties_at off l)).
Proof. intros H. apply (run_frame l H). Qed.

Lemma nodes_at_nil off : nodes_at off [] = [].
Proof. reflexivity. Qed.
Lemma empties_at_nil off : empties_at off [] = [].
Proof. reflexivity. Qed.

Lemma nodes_at_ins off sz l : nodes_at off (Ins sz :: l) = nodes_at (off + sz) l.
Proof. reflexivity. Qed.
Lemma empties_at_ins off sz l : empties_at off (Ins sz :: l) = empties_at (off + sz) l.
Proof. reflexivity. Qed.

Lemma nodes_at_empty off l : wf_markers l -> nodes_at off (EmptyBlock :: l) = nodes_at off l.
Proof.
  intros H. unfold nodes_at at 1. simpl. rewrite (run_frame l H). reflexivity.
Qed.
Lemma empties_at_empty off l : wf_markers l ->
  empties_at off (EmptyBlock :: l) = off :: empties_at off l.
Proof.
  intros H. unfold empties_at at 1. simpl. rewrite (run_frame l H). reflexivity.
Qed.

Lemma nodes_at_app off a b : wf_markers a -> wf_markers b ->
  nodes_at off (a ++ b) = nodes_at off a ++ nodes_at (off + size a) b.
Proof.
  intros Ha Hb. unfold nodes_at at 1. rewrite run_app, (run_cinit a off Ha), (run_frame b Hb).
  reflexivity.
Qed.
Lemma empties_at_app off a b : wf_markers a -> wf_markers b ->
  empties_at off (a ++ b) = empties_at off a ++ empties_at (off + size a) b.
Proof.
  intros Ha Hb. unfold empties_at at 1. rewrite run_app, (run_cinit a off Ha), (run_frame b Hb).
  reflexivity.
Qed.

Lemma nodes_at_node off n body l : wf_markers body -> wf_markers l ->
  nodes_at off (Start n :: body ++ End n :: l) =
  nodes_at off body ++ (n, off, off + size body) :: nodes_at (off + size body) l.
Proof.
  intros Hb Hl. unfold nodes_at at 1. simpl. rewrite run_app, (run_frame body Hb). simpl.
  rewrite Z.eqb_refl, (run_frame l Hl). simpl. rewrite <- app_assoc. reflexivity.
Qed.
Lemma empties_at_node off n body l : wf_markers body -> wf_markers l ->
  empties_at off (Start n :: body ++ End n :: l) =
  empties_at off body ++ empties_at (off + size body) l.
Proof.
  intros Hb Hl. unfold empties_at at 1. simpl. rewrite run_app, (run_frame body Hb). simpl.
  rewrite Z.eqb_refl, (run_frame l Hl). reflexivity.
Qed.

Lemma ins_starts_app off a b :
  ins_starts off (a ++ b) = ins_starts off a ++ ins_starts (off + size a) b.
Proof.
  revert off. induction a as [|i a IH]; intros off; simpl.
  - rewrite Z.add_0_r. reflexivity.
  - destruct i; simpl; rewrite IH, ?Z.add_assoc; reflexivity.
Qed.

Lemma start_on_boundary l : forall off, on_boundary off l off.
Proof.
  induction l as [|i l IH]; intros off; unfold on_boundary; simpl.
  - right. lia.
  - destruct i; simpl; auto; apply IH.
Qed.

Lemma on_boundary_ins off sz l x : on_boundary (off + sz) l x -> on_boundary off (Ins sz :: l) x.
Proof.
  intros [H|H]; unfold on_boundary; simpl; [left; auto | right; lia].
Qed.

Lemma on_boundary_app off a b x :
  on_boundary off a x \/ on_boundary (off + size a) b x -> on_boundary off (a ++ b) x.
Proof.
  unfold on_boundary. rewrite ins_starts_app, size_app, in_app_iff.
  intros [[H|H]|[H|H]]; [tauto| |tauto|right; lia].
  subst x. destruct (start_on_boundary b (off + size a)) as [H|H]; [tauto | right; lia].
Qed.

(* markers take no room: the boundaries of Start n :: l and End n :: l are those of l *)
Lemma on_boundary_node off n body l x :
  on_boundary off body x \/ on_boundary (off + size body) l x ->
  on_boundary off (Start n :: body ++ End n :: l) x.
Proof. exact (on_boundary_app off body (End n :: l) x). Qed.

Lemma collected_on_boundaries l : wf_markers l -> forall off,
  (forall n s e, In (n, s, e) (nodes_at off l) -> on_boundary off l s /\ on_boundary off l e) /\
  (forall a, In a (empties_at off l) -> on_boundary off l a).
Proof.
  induction 1 as [|sz l Hsz Hl IH|l Hl IH|n body l Hb IHb Hl IHl]; intros off.
  - split; intros; contradiction.
  - rewrite nodes_at_ins, empties_at_ins. destruct (IH (off + sz)) as [A B]. split.
    + intros n s e Hin. destruct (A n s e Hin). split; apply on_boundary_ins; assumption.
    + intros a Hin. apply on_boundary_ins, B, Hin.
  - rewrite nodes_at_empty, empties_at_empty by assumption. destruct (IH off) as [A B].
    split; [exact A|]. intros a [<-|Hin]; [apply (start_on_boundary l) | exact (B a Hin)].
  - rewrite nodes_at_node, empties_at_node by assumption.
    destruct (IHb off) as [A1 B1]. destruct (IHl (off + size body)) as [A2 B2].
    pose proof (start_on_boundary body off) as S1.
    pose proof (start_on_boundary l (off + size body)) as S2.
    pose proof (on_boundary_node off n body l) as N. split.
    + intros m s e Hin. apply in_app_or in Hin. destruct Hin as [Hin|[[= <- <- <-]|Hin]].
      * destruct (A1 m s e Hin). auto.
      * auto.
      * destruct (A2 m s e Hin). auto.
    + intros a Hin. apply in_app_or in Hin. destruct Hin as [Hin|Hin]; auto.
Qed.

Lemma collected_spans l : wf_markers l -> forall off,
  (forall n s e, In (n, s, e) (nodes_at off l) -> off <= s /\ s <= e /\ e <= off + size l) /\
  (forall a, In a (empties_at off l) -> off <= a <= off + size l).
Proof.
  induction 1 as [|sz l Hsz Hl IH|l Hl IH|n body l Hb IHb Hl IHl]; intros off.
  - split; intros; contradiction.
  - rewrite nodes_at_ins, empties_at_ins. simpl. destruct (IH (off + sz)) as [A B]. split.
    + intros n s e Hin. specialize (A n s e Hin). lia.
    + intros a Hin. specialize (B a Hin). lia.
  - rewrite nodes_at_empty, empties_at_empty by assumption. destruct (IH off) as [A B].
    split; [exact A|]. pose proof (wf_size_nonneg l Hl).
    intros a [<-|Hin]; [simpl; lia | exact (B a Hin)].
  - rewrite nodes_at_node, empties_at_node by assumption. simpl. rewrite size_app. simpl.
    destruct (IHb off) as [A1 B1]. destruct (IHl (off + size body)) as [A2 B2].
    pose proof (wf_size_nonneg body Hb). pose proof (wf_size_nonneg l Hl). split.
    + intros m s e Hin. apply in_app_or in Hin. destruct Hin as [Hin|[[= <- <- <-]|Hin]].
      * specialize (A1 m s e Hin). lia.
      * lia.
      * specialize (A2 m s e Hin). lia.
    + intros a Hin. apply in_app_or in Hin. destruct Hin as [Hin|Hin].
      * specialize (B1 a Hin). lia.
      * specialize (B2 a Hin). lia.
Qed.

Lemma collected_laminar l : wf_markers l -> forall off n1 s1 e1 n2 s2 e2,
  In (n1, s1, e1) (nodes_at off l) -> In (n2, s2, e2) (nodes_at off l) -> laminar s1 e1 s2 e2.
Proof.
  induction 1 as [|sz l Hsz Hl IH|l Hl IH|n body l Hb IHb Hl IHl]; intros off n1 s1 e1 n2 s2 e2.
  - contradiction.
  - rewrite nodes_at_ins. apply IH.
  - rewrite nodes_at_empty by assumption. apply IH.
  - rewrite nodes_at_node by assumption. set (m := off + size body).
    (* a node lies in the body, and then below m; is n itself; or lies after
       the body, and then above m *)
    assert (Pos : forall x s e, In (x, s, e) (nodes_at off body ++ (n, off, m) :: nodes_at m l) ->
              (In (x, s, e) (nodes_at off body) /\ off <= s /\ e <= m) \/
              (s = off /\ e = m) \/
              (In (x, s, e) (nodes_at m l) /\ m <= s)).
    { intros x s e Hx. apply in_app_or in Hx. destruct Hx as [Hx|[[= _ <- <-]|Hx]].
      - left. split; [exact Hx|]. apply (collected_spans body Hb off) in Hx. lia.
      - right. left. split; reflexivity.
      - right. right. split; [exact Hx|]. apply (collected_spans l Hl m) in Hx. lia. }
    intros H1 H2. unfold laminar.
    destruct (Pos _ _ _ H1) as [[I1 R1]|[R1|[I1 R1]]], (Pos _ _ _ H2) as [[I2 R2]|[R2|[I2 R2]]];
      try lia.
    + exact (IHb _ _ _ _ _ _ _ I1 I2).
    + exact (IHl _ _ _ _ _ _ _ I1 I2).
Qed.

Lemma in_ins_by key x l y : In y (ins_by key x l) <-> In y (x :: l).
Proof.
  induction l as [|z l IH]; simpl; [reflexivity|].
  destruct (key x <=? key z); simpl; [reflexivity|]. simpl in IH. tauto.
Qed.

Lemma in_sort_by key l y : In y (sort_by key l) <-> In y l.
Proof.
  induction l as [|z l IH]; simpl; [reflexivity|].
  rewrite in_ins_by. simpl. rewrite IH. reflexivity.
Qed.

Fixpoint sorted (key : rec -> Z) (l : list rec) : Prop :=
  match l with
  | [] => True
  | x :: r => (forall y, In y r -> key x <= key y) /\ sorted key r
  end.

Lemma ins_by_sorted key x l : sorted key l -> sorted key (ins_by key x l).
Proof.
  induction l as [|z l IH]; simpl; intros H.
  - split; [intros; contradiction | exact I].
  - destruct H as [Hz Hs]. destruct (Z.leb_spec (key x) (key z)) as [E|E]; simpl.
    + split; [|split; auto].
      intros y [Hy|Hy]; [subst; auto | specialize (Hz y Hy); lia].
    + split; [|apply IH; auto].
      intros y Hy. apply in_ins_by in Hy. destruct Hy as [Hy|Hy]; [subst; lia | auto].
Qed.

Lemma sort_by_sorted key l : sorted key (sort_by key l).
Proof.
  induction l as [|z l IH]; simpl; [exact I | apply ins_by_sorted; auto].
Qed.

Lemma sorted_last key l d : sorted key l -> forall y, In y l -> key y <= key (last l d).
Proof.
  induction l as [|z l IH]; intros Hs y Hy; [contradiction|].
  destruct Hs as [Hz Hs], l as [|w l'].
  - destruct Hy as [<-|[]]. simpl. lia.
  - change (last (z :: w :: l') d) with (last (w :: l') d).
    destruct Hy as [<-|Hy]; [|exact (IH Hs y Hy)].
    specialize (IH Hs w (or_introl eq_refl)). specialize (Hz w (or_introl eq_refl)). lia.
Qed.

(* finalize takes the first and the last element of a sorted non-empty list of
   children: both are among the children *)
Lemma sort_ends_in key c cs :
  In (hd c (sort_by key (c :: cs))) (c :: cs) /\ In (last (sort_by key (c :: cs)) c) (c :: cs).
Proof.
  rewrite <- !(in_sort_by key (c :: cs)).
  assert (N : exists y r, sort_by key (c :: cs) = y :: r).
  { simpl. destruct (sort_by key cs) as [|w r]; simpl; [eauto|]. destruct (key c <=? key w); eauto. }
  destruct N as (y & r & ->). split; [left; reflexivity|].
  clear. revert y. induction r as [|w r IH]; intros y; [left; reflexivity | right; apply IH].
Qed.

Lemma sort_by_hd key x l :
  hd_error (sort_by key (x :: l)) =
  match hd_error (sort_by key l) with
  | None => Some x
  | Some m => if key x <=? key m then Some x else Some m
  end.
Proof.
  simpl. destruct (sort_by key l) as [|w r]; simpl; [reflexivity|].
  destruct (key x <=? key w); reflexivity.
Qed.

(* list.sort is stable: among the candidates (those satisfying p) that precede
   it, the head of the sorted list has strictly the least key *)
Lemma sort_filter_first key (p : rec -> bool) l : forall m,
  hd_error (sort_by key (filter p l)) = Some m ->
  exists l1 l2, l = l1 ++ m :: l2 /\ forall y, In y l1 -> p y = true -> key m < key y.
Proof.
  induction l as [|z l IH]; intros m; [discriminate|].
  simpl filter. destruct (p z) eqn:Pz.
  - rewrite sort_by_hd. destruct (hd_error (sort_by key (filter p l))) as [m'|];
      [destruct (Z.leb_spec (key z) (key m')) as [C|C]|]; intros [= <-].
    + exists [], l. split; [reflexivity | intros y []].
    + destruct (IH _ eq_refl) as (l1 & l2 & -> & B). exists (z :: l1), l2. split; [reflexivity|].
      intros y [<-|Hy] Py; [exact C | exact (B y Hy Py)].
    + exists [], l. split; [reflexivity | intros y []].
  - intros Hm. destruct (IH m Hm) as (l1 & l2 & -> & B). exists (z :: l1), l2. split; [reflexivity|].
    intros y [<-|Hy] Py; [congruence | exact (B y Hy Py)].
Qed.

Lemma contains_iff addr r : contains addr r = true <-> r_start r <= addr < r_end r.
Proof. unfold contains. lia. Qed.

Lemma filter_not_block l : filter (fun r => negb (rec_is_block r)) l = l.
Proof. induction l; unfold rec_is_block in *; simpl in *; congruence. Qed.
Lemma filter_block l : filter rec_is_block l = [].
Proof. induction l; simpl; auto. Qed.

(* no record is a Block (D41), so the lookup is the head of the sorted matches *)
Lemma find_stmt_char stmts addr :
  find_stmt stmts addr =
  match hd_error (sort_by rsize (filter (contains addr) stmts)) with
  | Some r => FFound r
  | None => FNone
  end.
Proof.
  unfold find_stmt. rewrite filter_not_block, filter_block.
  destruct (sort_by rsize _); reflexivity.
Qed.

Lemma find_stmt_spec stmts addr :
  match find_stmt stmts addr with
  | FFound r =>
    In r stmts /\ r_start r <= addr < r_end r /\
    (forall r', In r' stmts -> r_start r' <= addr < r_end r' -> rsize r <= rsize r') /\
    (exists l1 l2, stmts = l1 ++ r :: l2 /\
       forall r', In r' l1 -> r_start r' <= addr < r_end r' -> rsize r < rsize r')
  | FNone => forall r, In r stmts -> ~ (r_start r <= addr < r_end r)
  | _ => False
  end.
Proof.
  rewrite find_stmt_char.
  pose proof (sort_by_sorted rsize (filter (contains addr) stmts)) as S.
  pose proof (sort_filter_first rsize (contains addr) stmts) as F.
  assert (M : forall y, In y (sort_by rsize (filter (contains addr) stmts)) <->
                        In y stmts /\ r_start y <= addr < r_end y).
  { intros y. rewrite in_sort_by, filter_In, contains_iff. reflexivity. }
  destruct (sort_by rsize (filter (contains addr) stmts)) as [|m t]; simpl.
  - intros r Hr Hc. apply (M r). auto.
  - destruct (proj1 (M m) (or_introl eq_refl)) as [Hin Hc]. destruct S as [Hz _].
    split; [exact Hin|]. split; [exact Hc|]. split.
    + intros r' Hr' Hc'. destruct (proj2 (M r') (conj Hr' Hc')) as [<-|Ht]; [lia | exact (Hz r' Ht)].
    + destruct (F m eq_refl) as (l1 & l2 & El & B). exists l1, l2. split; [exact El|].
      intros r' Hr' Hc'. apply B; [exact Hr' | apply contains_iff, Hc'].
Qed.

Lemma find_stmt_no_larger stmts addr r0 : In r0 stmts -> r_start r0 <= addr < r_end r0 ->
  exists r, find_stmt stmts addr = FFound r /\ r_start r <= addr < r_end r /\ rsize r <= rsize r0.
Proof.
  intros Hin Hc. pose proof (find_stmt_spec stmts addr) as S.
  destruct (find_stmt stmts addr) as [r| | |]; try contradiction.
  - destruct S as (_ & Hr & Hmin & _). eauto.
  - destruct (S r0 Hin Hc).
Qed.
