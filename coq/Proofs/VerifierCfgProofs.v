(* Control-flow level of the C03 verifier: a locally checked certificate of
   stack types is an invariant of every execution that stays inside the
   certified region, for any number of instructions, through jumps and loops.
   Model: Models/VerifierCfg.v; at the end, certificates relative to a base
   stack (cert_shift of Models/CertObs.v). *)
From Coq Require Import ZArith List Bool Lia.
From QV Require Import Sx Strs Fl Cell Machine Cpu Verifier VerifierProofs ErrProofs VerifierCfg.
Import ListNotations.
Open Scope Z_scope.

(* tys_eqb and Strs.str_eqb are the same function on lists of integers, up to conversion *)
Lemma tys_eqb_eq x : forall y, tys_eqb x y = true -> x = y.
Proof. intro y. apply (str_eqb_eq x y). Qed.

Lemma cert_at_in c a t : cert_at c a = Some t -> In (a, t) c.
Proof.
  induction c as [|[b t0] c IH]; cbn; [discriminate|].
  destruct (Z.eqb_spec a b) as [->|_]; intro H; [inversion H; subst; now left | right; auto].
Qed.

Lemma check_cert_at m c a t :
  check_cert m c = true -> cert_at c a = Some t -> check_at m c a t = true.
Proof.
  intros H Hc. unfold check_cert in H. rewrite forallb_forall in H.
  apply (H (a, t)). apply cert_at_in, Hc.
Qed.

(* what the check at one address establishes; both successors of jz are checked *)
Lemma check_at_inv m c a t :
  check_at m c a t = true ->
  0 <= a < code_len m /\
  exists i size t',
    decode (skipn (Z.to_nat a) (m_code m)) = DOk i size /\ eff i t = Some t' /\
    forall p', pc_post i (a + size) p' -> succ_ok c p' t' = true.
Proof.
  unfold check_at. intro H. apply andb_true_iff in H as [Hr H]. split; [lia|].
  destruct (decode (skipn (Z.to_nat a) (m_code m))) as [| |i size]; try discriminate.
  destruct (eff i t) as [t'|] eqn:He; [|discriminate].
  exists i, size, t'. split; [reflexivity|]. split; [exact He|]. intro p'.
  destruct i; try (intros ->; exact H).
  apply andb_true_iff in H as [H1 H2]. intros [-> | ->]; assumption.
Qed.

Lemma succ_ok_spec c a t t0 : succ_ok c a t = true -> cert_at c a = Some t0 -> t0 = t.
Proof. unfold succ_ok. intros H E. rewrite E in H. apply tys_eqb_eq, H. Qed.

Lemma heap_pre_exec s size : heap (pre_exec s size) = heap s.   Proof. destruct s; reflexivity. Qed.
Lemma cur_pre_exec s size : cur (pre_exec s size) = cur s.      Proof. destruct s; reflexivity. Qed.
Lemma events_pre_exec s size : events (pre_exec s size) = events s. Proof. destruct s; reflexivity. Qed.
Lemma irq_pre_exec s size : irq (pre_exec s size) = irq s.      Proof. destruct s; reflexivity. Qed.
Lemma pc_pre_exec s size : pc (pre_exec s size) = pc s + size.  Proof. destruct s; reflexivity. Qed.

Definition Inv (c : cert) (s : st) : Prop :=
  irq s = false /\ forall t, cert_at c (pc s) = Some t -> tys (stack s) = t.

Theorem cfg_step m c s t :
  check_cert m c = true -> Inv c s -> cert_at c (pc s) = Some t ->
  exists i size t',
    decode (skipn (Z.to_nat (pc s)) (m_code m)) = DOk i size /\ eff i (tys (stack s)) = Some t' /\
    match exec m i (pre_exec s size) with
    | R _ s3 =>
      tick m s = end_check m (Next s3) /\
      tys (stack s3) = t' /\ heap s3 = heap s /\ cur s3 = cur s /\ events s3 = events s /\
      Inv c s3 /\ (cert_at c (pc s3) <> None -> tick m s = Next s3)
    | T cd kw _ => ok_trap cd = true /\ kw = true
    | ZD _ => True
    | X _ _ => False
    | NI _ => False
    end.
Proof.
  intros Hck [Hirq Hty] Hc.
  destruct (check_at_inv m c (pc s) t (check_cert_at m c _ t Hck Hc))
    as (Hrange & i & size & t' & Hd & He & Hsucc).
  rewrite <- (Hty t Hc) in He.
  exists i, size, t'. split; [exact Hd|]. split; [exact He|].
  assert (Hn : forall idx, i <> IPushStr idx) by (intros idx ->; discriminate He).
  rewrite <- (stack_pre_exec s size) in He.
  pose proof (eff_exec m i _ (pc (pre_exec s size)) _ He (pre_exec s size) eq_refl eq_refl) as Hx.
  rewrite (tick_exec m s i size (conj Hirq Hrange) Hd Hn).
  destruct (exec m i (pre_exec s size)) as [u s3|cd kw s3|s3|k s3|s3]; auto.
  destruct Hx as (Hr & Ht & Hpc).
  destruct (blank_stack_pc_fields _ _ Hr) as (Hh & Hcu & Hev & _ & Hir).
  rewrite heap_pre_exec in Hh. rewrite cur_pre_exec in Hcu. rewrite events_pre_exec in Hev.
  rewrite irq_pre_exec in Hir. rewrite pc_pre_exec in Hpc.
  assert (HI : Inv c s3).
  { split; [congruence|]. intros t3 H3. rewrite (succ_ok_spec _ _ _ _ (Hsucc _ Hpc) H3). exact Ht. }
  repeat (split; [assumption || reflexivity|]).
  (* a certified successor lies inside the code, so the end-of-code check passes *)
  intro Hne. cbn.
  destruct (cert_at c (pc s3)) as [t3|] eqn:H3; [|contradiction].
  destruct (check_at_inv m c _ t3 (check_cert_at m c _ t3 Hck H3)) as [Hr3 _].
  replace (pc s3 >=? code_len m) with false by lia.
  now rewrite andb_false_r.
Qed.

Inductive qsteps (m : module) (c : cert) : nat -> st -> st -> Prop :=
| qs_O s : qsteps m c O s s
| qs_S n s i size u s1 s2 :
    cert_at c (pc s) <> None ->
    decode (skipn (Z.to_nat (pc s)) (m_code m)) = DOk i size ->
    exec m i (pre_exec s size) = R u s1 ->
    qsteps m c n s1 s2 -> qsteps m c (S n) s s2.

Theorem cfg_run m c :
  check_cert m c = true ->
  forall n s s', Inv c s -> qsteps m c n s s' ->
  Inv c s' /\ heap s' = heap s /\ cur s' = cur s /\ events s' = events s.
Proof.
  intros Hck n s s' HI Hq. induction Hq as [s|n s i size u s1 s2 Hne Hd He Hq IH].
  - repeat split; auto; apply HI.
  - destruct (cert_at c (pc s)) as [t|] eqn:Hc; [|contradiction].
    destruct (cfg_step m c s t Hck HI Hc) as (i' & size' & t' & Hd' & Heff & Hm).
    rewrite Hd in Hd'. inversion Hd'; subst i' size'. rewrite He in Hm.
    destruct Hm as (_ & _ & Hh & Hcu & Hev & HI1 & _).
    destruct (IH HI1) as (HI2 & Hh2 & Hcu2 & Hev2).
    repeat split; try apply HI2; congruence.
Qed.

(* hence: after any number of such steps the next certified instruction again
   runs on a well-typed stack - never TYPE_MISMATCH / STACK_EMPTY / a host
   exception, memory untouched *)
Corollary cfg_no_type_confusion m c :
  check_cert m c = true ->
  forall n s s' t, Inv c s -> qsteps m c n s s' -> cert_at c (pc s') = Some t ->
  exists i size t',
    decode (skipn (Z.to_nat (pc s')) (m_code m)) = DOk i size /\
    eff i (tys (stack s')) = Some t' /\ tys (stack s') = t /\
    safe_out i (pre_exec s' size) t' (exec m i (pre_exec s' size)).
Proof.
  intros Hck n s s' t HI Hq Hc.
  destruct (cfg_run m c Hck n s s' HI Hq) as (HI' & _).
  destruct (cfg_step m c s' t Hck HI' Hc) as (i & size & t' & Hd & He & _).
  exists i, size, t'. split; [exact Hd|]. split; [exact He|]. split; [apply HI', Hc|].
  apply eff_sound. rewrite stack_pre_exec. exact He.
Qed.

From QV Require Import Monitor CertObs.

Lemma eff_app i t r : match eff i t with Some t' => eff i (t ++ r) = Some (t' ++ r) | None => True end.
Proof.
  destruct i; try exact I; cbn [eff].
  (* the cells the rule takes are in t, and its tests read nothing else *)
  all: repeat match goal with
              | |- context[match ?t with [] => _ | _ :: _ => _ end] => is_var t; destruct t as [|? ?]; [exact I|]
              end.
  all: cbn [app].
  all: try match goal with |- context[if ?b then Some _ else None] => destruct b; [|exact I] end.
  all: reflexivity.
Qed.

Lemma eff_frame i t t' r : eff i t = Some t' -> eff i (t ++ r) = Some (t' ++ r).
Proof. intro H. pose proof (eff_app i t r) as E. rewrite H in E. exact E. Qed.

Lemma eff_list_frame l : forall t t' r, eff_list l t = Some t' -> eff_list l (t ++ r) = Some (t' ++ r).
Proof.
  induction l as [|i l IH]; intros t t' r H; cbn in *.
  - inversion H. reflexivity.
  - destruct (eff i t) as [t1|] eqn:E; [|discriminate].
    rewrite (eff_frame i t t1 r E). apply IH, H.
Qed.

Lemma tys_eqb_refl x : tys_eqb x x = true.
Proof. now apply (str_eqb_eq x x). Qed.

Lemma cert_at_shift r c a :
  cert_at (cert_shift r c) a = option_map (fun t => t ++ r) (cert_at c a).
Proof.
  induction c as [|[b t] c IH]; cbn; [reflexivity|].
  destruct (a =? b); [reflexivity | exact IH].
Qed.

Lemma succ_ok_shift r c a t : succ_ok c a t = true -> succ_ok (cert_shift r c) a (t ++ r) = true.
Proof.
  unfold succ_ok. rewrite cert_at_shift. destruct (cert_at c a) as [t0|]; cbn; [|reflexivity].
  intro H. apply tys_eqb_eq in H. subst. apply tys_eqb_refl.
Qed.

Lemma check_at_shift m r c a t :
  check_at m c a t = true -> check_at m (cert_shift r c) a (t ++ r) = true.
Proof.
  unfold check_at. intro H. apply andb_true_iff in H as [Hr H]. rewrite Hr. cbn [andb].
  destruct (decode (skipn (Z.to_nat a) (m_code m))) as [| |i size]; try discriminate.
  destruct (eff i t) as [t'|] eqn:E; [|discriminate].
  rewrite (eff_frame i t t' r E).
  destruct i; try (apply succ_ok_shift; exact H).
  (* IJz *)
  apply andb_true_iff in H as [H1 H2]. rewrite (succ_ok_shift r c _ _ H1), (succ_ok_shift r c _ _ H2).
  reflexivity.
Qed.

Theorem check_cert_frame m c r : check_cert m c = true -> check_cert m (cert_shift r c) = true.
Proof.
  unfold check_cert, cert_shift. rewrite !forallb_forall. intros H p Hp.
  apply in_map_iff in Hp as [[a t] [<- Hin]]. cbn [fst snd].
  apply check_at_shift. exact (H (a, t) Hin).
Qed.
