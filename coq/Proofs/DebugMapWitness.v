(* Attribution (property C11): the statement that was being generated when an
   instruction was emitted is collected with a range containing that
   instruction; and concrete marker streams (taken from what the real compiler
   emits) that show where the unchanged code violates C11. *)
From Coq Require Import ZArith List Bool Lia.
From QV Require Import DebugMap DebugMapProofs DebugMapFinalize DebugMapCover.
Import ListNotations.
Open Scope Z_scope.

(* the statements that were being generated when the instruction at [addr]
   was emitted, innermost first (the collector's stack at that moment) *)
Fixpoint open_at (l : list item) (off : Z) (stack : list node) (addr : Z) : option (list node) :=
  match l with
  | [] => None
  | Ins sz :: r => if off =? addr then Some stack else open_at r (off + sz) stack addr
  | Start n :: r => open_at r off (n :: stack) addr
  | End n :: r => open_at r off (tl stack) addr
  | EmptyBlock :: r => open_at r off stack addr
  end.

(* the open nodes at an instruction of a well-nested l followed by k: the
   instruction lies beyond l, or it lies in l and the open nodes are the
   context's, or the innermost one is a node collected from l whose range
   contains the instruction *)
Lemma open_at_collected l : wf_markers l -> forall k off st addr r,
  open_at (l ++ k) off st addr = Some r ->
  open_at k (off + size l) st addr = Some r \/
  (r = st /\ off <= addr < off + size l) \/
  exists n s e, hd_error r = Some n /\ In (n, s, e) (nodes_at off l) /\ s <= addr < e.
Proof.
  induction 1 as [|sz l Hsz Hl IH|l Hl IH|n body l Hb IHb Hl IHl]; intros k off st addr r H;
    simpl in H.
  - left. rewrite Z.add_0_r. exact H.
  - rewrite nodes_at_ins. simpl. pose proof (wf_size_nonneg l Hl).
    destruct (Z.eqb_spec off addr) as [E|E].
    + injection H as <-. right. left. split; [reflexivity | lia].
    + destruct (IH _ _ _ _ _ H) as [D|[[-> Rg]|D]].
      * left. rewrite Z.add_assoc. exact D.
      * right. left. split; [reflexivity | lia].
      * right. right. exact D.
  - rewrite nodes_at_empty by assumption. exact (IH _ _ _ _ _ H).
  - rewrite <- app_assoc in H. rewrite nodes_at_node by assumption. simpl. rewrite size_app. simpl.
    pose proof (wf_size_nonneg body Hb). pose proof (wf_size_nonneg l Hl).
    destruct (IHb _ _ _ _ _ H) as [D|[[-> Rg]|(m & s & e & Hr & Hin & Hc)]].
    + destruct (IHl _ _ _ _ _ D) as [D'|[[-> Rg]|(m & s & e & Hr & Hin & Hc)]].
      * left. rewrite Z.add_assoc. exact D'.
      * right. left. split; [reflexivity | lia].
      * right. right. exists m, s, e. split; [exact Hr|]. split; [|exact Hc].
        apply in_or_app. right. right. exact Hin.
    + (* inside the body with nothing more opened: n is the innermost *)
      right. right. exists n, off, (off + size body).
      split; [reflexivity|]. split; [apply in_elt | exact Rg].
    + right. right. exists m, s, e. split; [exact Hr|]. split; [|exact Hc].
      apply in_or_app. left. exact Hin.
Qed.

(* the innermost open node at an instruction is collected, with a range that
   contains the instruction *)
Lemma open_node_collected l : wf_markers l -> forall addr n rest,
  open_at l 0 [] addr = Some (n :: rest) ->
  exists s e, In (n, s, e) (nodes_at 0 l) /\ s <= addr < e.
Proof.
  intros W addr n rest HO. rewrite <- (app_nil_r l) in HO.
  destruct (open_at_collected l W _ _ _ _ _ HO) as [D|[[D _]|(m & s & e & [= <-] & H)]];
    [discriminate..|eauto].
Qed.

Definition st (i : Z) := mkNode i KStmt.
Definition bl (i a b : Z) := mkNode i (KBlock a b).

(* witness 1:
     x = 1
     WHILE x < 3
       x = x + 1
       IF x = 2 THEN PRINT 1002
     WEND
   compiled at -O0 -g.  The WEND record is synthesised from the child with the
   greatest start offset (the PRINT nested in the single-line IF), so it
   starts inside the IF statement's range; the jump that ends the single-line
   IF (offset 59) was emitted while the IF statement (node 6) was the
   innermost open node, and the lookup answers WEND. *)
Definition w1_mid : list item :=
  [Start (st 5); Ins 3; Ins 1; Ins 1; Ins 1; Ins 3; End (st 5);
   Start (st 6); Ins 3; Ins 1; Ins 1; Ins 1; Ins 1; Ins 5;
     Start (st 7); Ins 1; Ins 3; Ins 1; Ins 3; End (st 7);
     Ins 5; End (st 6)].
Definition w1_pre : list item := [Ins 3; Ins 3; Ins 1; Ins 1; Ins 1; Ins 5].
Definition w1 : list item :=
  [Ins 5; Ins 1; Ins 5;
   Start (st 1); Ins 1; Ins 1; Ins 3; End (st 1);
   Start (bl 2 3 4)] ++ (w1_pre ++ w1_mid ++ [Ins 5]) ++ [End (bl 2 3 4); Ins 1].

Definition w1_table : list rec :=
  [mkRec 1 11 16; mkRec 3 16 30; mkRec 5 30 39; mkRec 6 39 64; mkRec 7 51 59; mkRec 4 59 69].

Lemma w1_debug_map : debug_map w1 = DOk [] w1_table [] 70.
Proof. reflexivity. Qed.

(* an instruction in front, in a [good], [flat] or [wf_markers] derivation *)
Local Ltac ins := constructor; [lia|].
Local Ltac fl := repeat (first [apply flat_nil | ins | apply flat_empty]).

Lemma w1_good : good true w1.
Proof.
  unfold w1. simpl. repeat ins.
  apply (good_stmt true (st 1) [Ins 1; Ins 1; Ins 3]); [reflexivity| |].
  { repeat ins. apply good_nil. }
  apply (good_block true (bl 2 3 4) w1_pre w1_mid [Ins 5] [Ins 1]); [reflexivity| | | | |].
  - unfold w1_pre. fl.
  - unfold w1_mid.
    apply (good_stmt false (st 5) [Ins 3; Ins 1; Ins 1; Ins 1; Ins 3]); [reflexivity| |].
    { repeat ins. apply good_nil. }
    apply (good_stmt false (st 6)
             [Ins 3; Ins 1; Ins 1; Ins 1; Ins 1; Ins 5;
              Start (st 7); Ins 1; Ins 3; Ins 1; Ins 3; End (st 7); Ins 5]);
      [reflexivity| |apply good_nil].
    repeat ins.
    apply (good_stmt true (st 7) [Ins 1; Ins 3; Ins 1; Ins 3]); [reflexivity| |].
    { repeat ins. apply good_nil. }
    ins. apply good_nil.
  - fl.
  - left. reflexivity.
  - ins. apply good_nil.
Qed.

(* witness 2:
     x = 1
     IF x > 30000 * x THEN
       CONST k = 5
     END IF
     PRINT 1005
   The IF block has no non-empty child (CONST emits no code) and its only
   _empty_block marker (the missing ELSE body) sits at the end offset of the
   block, which "start <= addr < end" excludes: no IF / END IF record is
   synthesised and the condition code belongs to no statement. *)
Definition w2 : list item :=
  [Ins 5; Ins 1; Ins 5;
   Start (st 1); Ins 1; Ins 1; Ins 3; End (st 1);
   Start (bl 2 3 4);
     Ins 3; Ins 3; Ins 1; Ins 3; Ins 1; Ins 1; Ins 1; Ins 5;
     Start (st 5); End (st 5);
     Ins 5; EmptyBlock;
   End (bl 2 3 4);
   Start (st 6); Ins 1; Ins 3; Ins 1; Ins 3; End (st 6);
   Ins 1].

Definition w2_table : list rec := [mkRec 1 11 16; mkRec 5 34 34; mkRec 6 39 47].

Lemma w2_debug_map : debug_map w2 = DOk [] w2_table [] 48.
Proof. reflexivity. Qed.

Lemma w2_wf : wf_markers w2.
Proof.
  unfold w2. repeat ins.
  apply (wf_node (st 1) [Ins 1; Ins 1; Ins 3]). { repeat ins. apply wf_nil. }
  apply (wf_node (bl 2 3 4)
           [Ins 3; Ins 3; Ins 1; Ins 3; Ins 1; Ins 1; Ins 1; Ins 5;
            Start (st 5); End (st 5); Ins 5; EmptyBlock]).
  { repeat ins. apply (wf_node (st 5) []); [apply wf_nil|].
    ins. apply wf_empty. apply wf_nil. }
  apply (wf_node (st 6) [Ins 1; Ins 3; Ins 1; Ins 3]). { repeat ins. apply wf_nil. }
  ins. apply wf_nil.
Qed.

(* non-vacuity: a program whose table is what the property wants.
     FOR-like block with an empty body between two statements:
       Start B; cond; EmptyBlock; step; End B *)
Definition w3 : list item :=
  [Ins 5; Ins 1; Ins 5;
   Start (bl 1 2 3); Ins 3; Ins 5; EmptyBlock; Ins 5; End (bl 1 2 3);
   Start (st 4); Ins 1; Ins 2; End (st 4);
   Ins 1].

Lemma w3_debug_map :
  debug_map w3 = DOk [] [mkRec 2 11 19; mkRec 3 19 24; mkRec 4 24 27] [] 28.
Proof. reflexivity. Qed.

Lemma w3_good : good true w3.
Proof.
  unfold w3. repeat ins.
  apply (good_block true (bl 1 2 3) [Ins 3; Ins 5; EmptyBlock; Ins 5] [] [] _);
    [reflexivity| | | | |].
  - fl.
  - apply good_nil.
  - fl.
  - right. exists 8. split; vm_compute; auto.
  - apply (good_stmt true (st 4) [Ins 1; Ins 2]); [reflexivity| |].
    + repeat ins. apply good_nil.
    + ins. apply good_nil.
Qed.
