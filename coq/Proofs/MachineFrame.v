(* Frame properties of the machine model used by the debugger theorems:
   no instruction reads [halted]/[reason] (they are only written, by IHalt, by
   _trap and by the end-of-code check of tick), and device events are only ever
   appended.  Proved once for every monadic primitive and every instruction. *)
From Coq Require Import ZArith List Bool.
From QV Require Import Machine Cpu.
Import ListNotations.
Open Scope Z_scope.

Definition omap {A} (f : st -> st) (o : out A) : out A :=
  match o with
  | R a s => R a (f s)
  | T c k s => T c k (f s)
  | ZD s => ZD (f s)
  | X k s => X k (f s)
  | NI s => NI (f s)
  end.

Definition ostate {A} (o : out A) : st :=
  match o with R _ s | T _ _ s | ZD s | X _ s | NI s => s end.

(* b extends a at the front (events are kept most recent first) *)
Definition ext (a b : list event) : Prop := exists l, b = l ++ a.

Lemma ext_refl a : ext a a.
Proof. exists []. reflexivity. Qed.
Lemma ext_cons a e : ext a (e :: a).
Proof. exists [e]. reflexivity. Qed.
Lemma ext_trans a b c : ext a b -> ext b c -> ext a c.
Proof. intros [l1 H1] [l2 H2]. exists (l2 ++ l1). subst. now rewrite app_assoc. Qed.

(* c commutes with every overwrite of halted/reason and only appends events *)
Definition good {A} (c : M A) : Prop :=
  (forall s h r, c (set_halt s h r) = omap (fun s' => set_halt s' h r) (c s)) /\
  (forall s, ext (events s) (events (ostate (c s)))).

Lemma good_ret A (a : A) : good (ret a).
Proof. split; intros; [reflexivity | apply ext_refl]. Qed.

Lemma good_bind A B (c : M A) (f : A -> M B) :
  good c -> (forall a, good (f a)) -> good (bind c f).
Proof.
  intros [H1 H2] Hf. split; intros s; unfold bind.
  - intros h r. rewrite H1. destruct (c s); simpl; try reflexivity. apply Hf.
  - specialize (H2 s). destruct (c s) as [a s'| | | |]; simpl in *; try assumption.
    eapply ext_trans; [exact H2 | apply Hf].
Qed.

(* the state may be read, but not its halted/reason *)
Lemma good_get_bind B (f : st -> M B) :
  (forall s0, good (f s0)) -> (forall s0 h r, f (set_halt s0 h r) = f s0) -> good (bind get f).
Proof.
  intros Hf Hi. split; intros s; unfold bind, get.
  - intros h r. rewrite Hi. apply Hf.
  - apply Hf.
Qed.

Lemma good_modify f :
  (forall s h r, f (set_halt s h r) = set_halt (f s) h r) ->
  (forall s, ext (events s) (events (f s))) -> good (modify f).
Proof. intros H1 H2. split; intros; unfold modify; simpl; [now rewrite H1 | apply H2]. Qed.

Lemma good_if A (b : bool) (c1 c2 : M A) : good c1 -> good c2 -> good (if b then c1 else c2).
Proof. destruct b; auto. Qed.

(* A primitive written as a function of the state: after a case split on the part of the
   state it inspects (never halted/reason), both halves hold by computation. *)
Ltac good_prim :=
  lazymatch goal with |- good ?c => let c' := eval hnf in c in change (good c') end;
  split; intros; simpl;
  try match goal with |- context [match ?x with _ => _ end] => destruct x end;
  first [reflexivity | apply ext_refl].

Lemma good_trap A c : good (@trap A c).
Proof. good_prim. Qed.
Lemma good_trap_badkw A c : good (@trap_badkw A c).
Proof. good_prim. Qed.
Lemma good_crashM A k : good (@crashM A k).
Proof. good_prim. Qed.
Lemma good_ZD A : good (fun s => @ZD A s).
Proof. good_prim. Qed.
Lemma good_NI A : good (fun s => @NI A s).
Proof. good_prim. Qed.
Lemma good_upd_stack f : good (upd_stack f).
Proof. good_prim. Qed.
Lemma good_pop : good pop.
Proof. good_prim. Qed.
Lemma good_get_seg g : good (get_seg g).
Proof. good_prim. Qed.
Lemma good_set_heap_raw g sg :
  good (fun s => match setZ (heap s) g sg with
                 | Some h => R tt (set_heap s h)
                 | None => X CrAssert s
                 end).
Proof. good_prim. Qed.
Lemma good_alloc_seg sg : good (alloc_seg sg).
Proof. good_prim. Qed.
Lemma good_cur_frame : good cur_frame.
Proof. good_prim. Qed.
Lemma good_take_line : good take_line.
Proof. good_prim. Qed.
Lemma good_take_rnd : good take_rnd.
Proof. good_prim. Qed.
Lemma good_take_timer : good take_timer.
Proof. good_prim. Qed.
Lemma good_take_inkey : good take_inkey.
Proof. good_prim. Qed.
Lemma good_T_lastkw A c : good (fun s' => @T A c (last_kw_ok s') s').
Proof. good_prim. Qed.
Lemma good_X_trapped_addr A k : good (fun s' => @X A k (set_trapped_addr s' (prev_pc s'))).
Proof. good_prim. Qed.

Lemma good_emit_ev id args : good (emit_ev id args).
Proof. apply good_modify; intros; [reflexivity | apply ext_cons]. Qed.

Create HintDb good discriminated.
#[export] Hint Constants Opaque : good.
#[export] Hint Resolve good_ret good_trap good_trap_badkw good_crashM good_ZD good_NI good_upd_stack
  good_pop good_get_seg good_set_heap_raw good_alloc_seg good_cur_frame good_take_line good_take_rnd
  good_take_timer good_take_inkey good_T_lastkw good_X_trapped_addr good_emit_ev : good.

(* the workhorse: decompose binds, case-split every match/if on a pure value.  That the
   continuation of a [bind get] ignores halted/reason is tried by reflexivity; where it fails the
   clause is passed over without a message and an unprovable [good get] is what remains. *)
Ltac good_step :=
  match goal with
  | |- good (bind get _) => apply good_get_bind; [intro | intros; reflexivity]
  | |- good (bind _ _) => apply good_bind; [| intro]
  | |- good (modify _) => apply good_modify; intros; [reflexivity | apply ext_refl]
  | |- good (let _ := _ in _) => cbv zeta
  | |- good (if _ then _ else _) => apply good_if
  | |- good (match ?x with _ => _ end) => destruct x
  | |- good _ => solve [auto with good]
  end.
Ltac good_tac := repeat good_step.

(* an anonymous local fixpoint, recursive in its first argument: by induction, for all arguments *)
Ltac good_fix :=
  match goal with
  | |- good (?F _ _ _) => is_fix F; enough (forall a b c, good (F a b c)) by auto
  | |- good (?F _ _) => is_fix F; enough (forall a b, good (F a b)) by auto
  | |- good (?F _) => is_fix F; enough (forall a, good (F a)) by auto
  end;
  let a := fresh in intro a; induction a; intros; simpl; good_tac.

Lemma good_mk_cell ty v : good (mk_cell ty v).
Proof. unfold mk_cell. good_tac. Qed.
Lemma good_push_cell c : good (push_cell c).
Proof. unfold push_cell. good_tac. Qed.
#[export] Hint Resolve good_mk_cell good_push_cell : good.

Lemma good_push ty v : good (push ty v).
Proof. unfold push. good_tac. Qed.
Lemma good_repush c : good (repush c).
Proof. unfold repush. good_tac. Qed.
Lemma good_pop_ty ty : good (pop_ty ty).
Proof. unfold pop_ty. good_tac. Qed.
#[export] Hint Resolve good_push good_repush good_pop_ty : good.

Lemma good_pop_int : good pop_int.
Proof. unfold pop_int. good_tac. Qed.
Lemma good_pop_long : good pop_long.
Proof. unfold pop_long. good_tac. Qed.
Lemma good_pop_str : good pop_str.
Proof. unfold pop_str. good_tac. Qed.
Lemma good_pop_ref : good pop_ref.
Proof. unfold pop_ref. good_tac. Qed.
Lemma good_seg_get g i : good (seg_get g i).
Proof. unfold seg_get. good_tac. Qed.
Lemma good_seg_set g i c : good (seg_set g i c).
Proof. unfold seg_set. good_tac. Qed.
Lemma good_scope_seg b : good (scope_seg b).
Proof. unfold scope_seg. good_tac. Qed.
#[export] Hint Resolve good_pop_int good_pop_long good_pop_str good_pop_ref good_seg_get good_seg_set
  good_scope_seg : good.

Lemma good_read_var b i : good (read_var b i).
Proof. unfold read_var. good_tac. Qed.
Lemma good_write_var b i c : good (write_var b i c).
Proof. unfold write_var. good_tac. Qed.
Lemma good_dev_arg ty : good (dev_arg ty).
Proof. unfold dev_arg. good_tac. Qed.
#[export] Hint Resolve good_read_var good_write_var good_dev_arg : good.

Lemma good_dev_arg_int : good dev_arg_int.
Proof. unfold dev_arg_int. good_tac. Qed.
Lemma good_dev_arg_long : good dev_arg_long.
Proof. unfold dev_arg_long. good_tac. Qed.
Lemma good_dev_arg_single : good dev_arg_single.
Proof. unfold dev_arg_single. good_tac. Qed.
Lemma good_pop_n n : forall acc, good (pop_n n acc).
Proof. induction n; intros; simpl; good_tac. Qed.
Lemma good_pop_ints n : forall acc, good (pop_ints n acc).
Proof. induction n; intros; simpl; good_tac. Qed.
Lemma good_conv_fields l : good (conv_fields l).
Proof. induction l as [|[v ty] l IH]; simpl; good_tac. Qed.
Lemma good_push_all l : good (push_all l).
Proof. induction l as [|[ty v] l IH]; simpl; good_tac. Qed.
#[export] Hint Resolve good_dev_arg_int good_dev_arg_long good_dev_arg_single good_pop_n good_pop_ints
  good_conv_fields good_push_all : good.

Lemma good_push_fields l : good (push_fields l).
Proof. unfold push_fields. good_tac. Qed.
#[export] Hint Resolve good_push_fields : good.

Lemma good_input_loop fuel : forall prompt q sl types, good (input_loop fuel prompt q sl types).
Proof. induction fuel; intros; simpl; good_tac. Qed.

(* folding an update over a list is a sequence of updates *)
Lemma good_fold_left B (g : st -> B -> st) l :
  (forall b, good (modify (fun s => g s b))) -> good (modify (fold_left g l)).
Proof.
  intros Hg. induction l as [|b l IH]; [apply good_ret |].
  exact (good_bind _ _ _ _ (Hg b) (fun _ => IH)).
Qed.

Lemma good_dev_print : good dev_print.
Proof.
  unfold dev_print. good_tac.
  apply good_fold_left. intro. apply good_emit_ev.
Qed.

Lemma good_dev_input : good dev_input.
Proof.
  unfold dev_input. good_tac.
  split; intros s; [intros h r |]; apply good_input_loop.
Qed.

Lemma good_dev_read m : good (dev_read m).
Proof.
  unfold dev_read. good_tac.
  all: apply good_modify; intros; cbn; destruct (_ >=? _); reflexivity || apply ext_refl.
Qed.

Lemma good_dev_restore : good dev_restore.
Proof. unfold dev_restore. good_tac. Qed.
Lemma good_dev_rnd : good dev_rnd.
Proof. unfold dev_rnd. good_tac. Qed.
Lemma good_dev_locate : good dev_locate.
Proof. unfold dev_locate. good_tac. Qed.
Lemma good_dev_set_mode : good dev_set_mode.
Proof. unfold dev_set_mode. good_tac. Qed.
#[export] Hint Resolve good_dev_print good_dev_input good_dev_read good_dev_restore good_dev_rnd
  good_dev_locate good_dev_set_mode : good.

Lemma good_exec_io m d o : good (exec_io m d o).
Proof. unfold exec_io. good_tac. Qed.

Lemma good_type_mismatch A : good (@type_mismatch A).
Proof. apply good_trap. Qed.
#[export] Hint Resolve good_exec_io good_type_mismatch : good.

Lemma good_bitwise op : good (bitwise op).
Proof. unfold bitwise. good_tac. Qed.
Lemma good_arith_prelude : good arith_prelude.
Proof. unfold arith_prelude. good_tac. Qed.
Lemma good_push_opt ty o : good (push_opt ty o).
Proof. unfold push_opt. good_tac. Qed.
Lemma good_check_long z : good (check_long z).
Proof. unfold check_long. good_tac. Qed.
Lemma good_cell_val_Z o : good (cell_val_Z o).
Proof. unfold cell_val_Z. good_tac. Qed.
#[export] Hint Resolve good_bitwise good_arith_prelude good_push_opt good_check_long good_cell_val_Z : good.

Lemma good_check_bounds_long bs : good (check_bounds_long bs).
Proof. induction bs as [|[lb ub] bs IH]; simpl; good_tac. Qed.
Lemma good_read_array_bounds n : good (read_array_bounds n).
Proof. unfold read_array_bounds. good_fix. Qed.
Lemma good_exec_arridx n : good (exec_arridx n).
Proof. unfold exec_arridx. good_tac; good_fix. Qed.
Lemma good_find_stmt_at m stmts addr : good (find_stmt_at m stmts addr).
Proof. unfold find_stmt_at. good_tac. Qed.
#[export] Hint Resolve good_check_bounds_long good_read_array_bounds good_exec_arridx good_find_stmt_at : good.

Lemma good_exec_errres m next : good (exec_errres m next).
Proof. unfold exec_errres. good_tac. Qed.
Lemma good_read_generic l ty c d : good (read_generic l ty c d).
Proof. unfold read_generic. good_tac. Qed.
Lemma good_exec_initarr l i n es : good (exec_initarr l i n es).
Proof. unfold exec_initarr. good_tac; good_fix. Qed.
Lemma good_exp_tail a b : good (exp_tail a b).
Proof. unfold exp_tail, exp_tail_ref. good_tac. Qed.
#[export] Hint Resolve good_exec_errres good_read_generic good_exec_initarr good_exp_tail : good.

Lemma good_exec m i : i = IHalt \/ good (exec m i).
Proof.
  destruct i; try (left; reflexivity); right; cbv beta iota delta [exec]; good_tac.
  good_fix.
Qed.

Lemma exec_halt_ext m s : ext (events s) (events (ostate (exec m IHalt s))).
Proof. apply ext_refl. Qed.

Definition tstate (t : tick_out) : st := match t with Next s | Crash _ s | NeedInput s => s end.
Definition tmap (f : st -> st) (t : tick_out) : tick_out :=
  match t with Next s => Next (f s) | Crash k s => Crash k (f s) | NeedInput s => NeedInput (f s) end.

Definition eqh (a b : st) : Prop := set_halt a false 0 = set_halt b false 0.

Lemma eqh_refl a : eqh a a. Proof. reflexivity. Qed.
Lemma eqh_sym a b : eqh a b -> eqh b a. Proof. unfold eqh; congruence. Qed.
Lemma eqh_trans a b c : eqh a b -> eqh b c -> eqh a c. Proof. unfold eqh; congruence. Qed.
Lemma eqh_set_halt_l a b h r : eqh a b -> eqh (set_halt a h r) b. Proof. exact (fun H => H). Qed.
Lemma eqh_set_halt_r a b h r : eqh a b -> eqh a (set_halt b h r). Proof. exact (fun H => H). Qed.

Lemma set_halt_id s : set_halt s (halted s) (reason s) = s.
Proof. destruct s; reflexivity. Qed.

Lemma eqh_is_set_halt a b : eqh a b -> b = set_halt a (halted b) (reason b).
Proof.
  intros H. rewrite <- (set_halt_id b) at 1.
  exact (f_equal (fun s => set_halt s (halted b) (reason b)) (eq_sym H)).
Qed.

Lemma eqh_events a b : eqh a b -> events a = events b.
Proof. exact (fun H => f_equal events H). Qed.
Lemma eqh_pc a b : eqh a b -> pc a = pc b.
Proof. exact (fun H => f_equal pc H). Qed.

Definition follows (s a : st) : Prop :=
  ext (events s) (events a) /\ halted a = halted s /\ reason a = reason s.

Lemma follows_refl s : follows s s.
Proof. split; [apply ext_refl | split; reflexivity]. Qed.

Lemma ostate_omap A f (o : out A) : ostate (omap f o) = f (ostate o).
Proof. destruct o; reflexivity. Qed.

(* commuting with every overwrite of halted/reason, c cannot have written them itself *)
Lemma good_follows A (c : M A) s a : good c -> follows s a -> follows s (ostate (c a)).
Proof.
  intros [G1 G2] [E [Hh Hr]]. split; [exact (ext_trans _ _ _ E (G2 a)) |].
  specialize (G1 a (halted a) (reason a)). rewrite set_halt_id in G1.
  rewrite G1, ostate_omap. split; assumption.
Qed.

(* the outcome of an instruction as the outcome of the tick, before the end-of-code check *)
Definition settle (m : module) (o : out unit) : tick_out :=
  match o with
  | R _ s => Next s
  | T c kw s => do_trap m c kw (set_trapped_addr s (prev_pc s))
  | ZD s => do_trap m T_DIVISION_BY_ZERO true (set_trapped_addr s (prev_pc s))
  | X k s => Crash k s
  | NI s => NeedInput s
  end.

Section Overwrite.
(* the state a tick starts from, and what its halted/reason are overwritten with *)
Variables (m : module) (s : st) (h : bool) (r : Z).

(* How the outcome t of a step from s changes into t' when halted/reason of s are overwritten
   first: either the step carries the overwrite along, or it halts the machine and so
   overwrites the overwrite. *)
Definition step_rel (t t' : tick_out) : Prop :=
  (follows s (tstate t) /\ t' = tmap (fun a => set_halt a h r) t) \/
  (ext (events s) (events (tstate t)) /\ halted (tstate t) = true /\ t' = t).

Lemma step_rel_pass t : follows s (tstate t) -> step_rel t (tmap (fun a => set_halt a h r) t).
Proof. left. split; [assumption | reflexivity]. Qed.
Lemma step_rel_halt t : ext (events s) (events (tstate t)) -> halted (tstate t) = true -> step_rel t t.
Proof. right. repeat split; assumption. Qed.

(* the end of _trap: halt with reason TRAP, or the KeyError of the diagnostic print *)
Lemma report_step_rel (kw : bool) a : follows s a ->
  step_rel (if kw then Next (set_halt a true H_TRAP) else Crash CrKey a)
       (if kw then Next (set_halt (set_halt a h r) true H_TRAP) else Crash CrKey (set_halt a h r)).
Proof.
  intros F. destruct kw; [apply step_rel_halt; [apply F | reflexivity] | apply step_rel_pass; exact F].
Qed.

Lemma do_trap_step_rel c kw a : follows s a ->
  step_rel (do_trap m c kw a) (do_trap m c kw (set_halt a h r)).
Proof.
  intros F. unfold do_trap.
  change (set_last_trap (set_halt a h r) (Some c) kw) with (set_halt (set_last_trap a (Some c) kw) h r).
  change (follows s (set_last_trap a (Some c) kw)) in F.
  generalize dependent (set_last_trap a (Some c) kw). clear a. intros a F.
  simpl handler_active. simpl ttarget_.
  destruct (handler_active a); [exact (report_step_rel kw a F) |].
  destruct (ttarget_ a); simpl.
  - exact (report_step_rel kw a F).
  - rewrite (proj1 (good_exec_errres m true)).
    pose proof (good_follows _ _ s a (good_exec_errres m true) F) as F'.
    destruct (exec_errres m true a) as [u a' | c' k' a' | a' | k' a' | a'];
      try (apply step_rel_pass; exact F').
    (* the statement lookup failed: the original error is reported *)
    exact (report_step_rel kw (set_trapped_addr a' (prev_pc a')) F').
  - apply step_rel_pass. exact F.
Qed.

Lemma settle_step_rel i a : follows s a ->
  step_rel (settle m (exec m i a)) (settle m (exec m i (set_halt a h r))).
Proof.
  intros F. destruct (good_exec m i) as [-> | G]; [apply step_rel_halt; [apply F | reflexivity] |].
  rewrite (proj1 G). pose proof (good_follows _ _ s a G F) as F'.
  destruct (exec m i a) as [u a' | c kw a' | a' | k a' | a']; try (apply step_rel_pass; exact F').
  - exact (do_trap_step_rel c kw (set_trapped_addr a' (prev_pc a')) F').
  - exact (do_trap_step_rel _ true (set_trapped_addr a' (prev_pc a')) F').
Qed.

(* What holds of a whole tick.  The end-of-code check reads halted, so in general the two
   outcomes only agree up to halted/reason; they are related as by step_rel when the overwrite
   leaves halted as it was. *)
Definition tick_rel (t t' : tick_out) : Prop :=
  ext (events s) (events (tstate t)) /\
  tmap (fun a => set_halt a false 0) t = tmap (fun a => set_halt a false 0) t' /\
  (h = halted s -> step_rel t t').

Lemma step_rel_tick_rel t t' : step_rel t t' -> tick_rel t t'.
Proof.
  intros H. split; [| split; [| intros _; exact H]]; destruct H as [[F ->] | [E [_ ->]]].
  - apply F.
  - exact E.
  - destruct t; reflexivity.
  - reflexivity.
Qed.

(* an unknown opcode is stepped over after _trap (also when _trap halted the machine), unless
   _trap ended in a host exception *)
Lemma step_rel_skip t t' : step_rel t t' ->
  let skip t := match t with
                | Next a => Next (set_pc a (pc a + 1))
                | Crash k a => Crash k a
                | NeedInput a => NeedInput a
                end in
  step_rel (skip t) (skip t').
Proof.
  intros [[F ->] | [E [Hh ->]]]; destruct t;
    first [apply step_rel_pass; exact F | apply step_rel_halt; assumption].
Qed.

End Overwrite.

Lemma end_check_tick_rel m s h r t t' :
  step_rel s h r t t' -> tick_rel s h r (end_check m t) (end_check m t').
Proof.
  intros [[F ->] | [E [Hh ->]]].
  - destruct t as [a | k a | a]; try (apply step_rel_tick_rel, step_rel_pass; exact F).
    pose proof F as [E [Hh _]]. simpl in *.
    destruct (halted a) eqn:Ha, h, (pc a >=? code_len m); simpl;
      (split; [exact E | split; [reflexivity | intros Q]]); try congruence;
      first [apply step_rel_halt; [exact E | reflexivity] | apply step_rel_pass; exact F].
  - apply step_rel_tick_rel. destruct t; simpl in *; rewrite ?Hh; apply step_rel_halt; assumption.
Qed.

(* a push$ whose literal index is out of range fails while decoding *)
Definition no_literal (m : module) (i : instr) : bool :=
  match i with
  | IPushStr idx => match nthZ (m_literals m) idx with Some _ => false | None => true end
  | _ => false
  end.

Lemma pushstr_case B m i (a b : B) :
  match i with
  | IPushStr idx => match nthZ (m_literals m) idx with Some _ => b | None => a end
  | _ => b
  end = if no_literal m i then a else b.
Proof. destruct i; try reflexivity. simpl. destruct (nthZ _ _); reflexivity. Qed.

(* tick with its two copies of the instruction step, one per kind of instruction, folded into one *)
Lemma tick_unfold m s : tick m s =
  if irq s then do_trap m T_KEYBOARD_INTERRUPT true (set_irq s false)
  else
    let s1 := set_prev_pc s (pc s) in
    if (pc s <? 0) || (pc s >=? code_len m) then Crash CrIndex s1
    else
      match decode (skipn (Z.to_nat (pc s)) (m_code m)) with
      | DUnknown =>
        match do_trap m T_INVALID_OP_CODE true s1 with
        | Next s2 => Next (set_pc s2 (pc s2 + 1))
        | o => o
        end
      | DTrunc => Crash CrAssert s1
      | DOk i size =>
        if no_literal m i then Crash CrIndex s1
        else end_check m (settle m (exec m i (set_pc s1 (pc s1 + size))))
      end.
Proof.
  unfold tick. destruct (decode _); try reflexivity. rewrite pushstr_case. reflexivity.
Qed.

Theorem tick_frame m s h r : tick_rel s h r (tick m s) (tick m (set_halt s h r)).
Proof.
  rewrite !tick_unfold. simpl irq. simpl pc. pose proof (follows_refl s) as F.
  destruct (irq s); [apply step_rel_tick_rel, do_trap_step_rel, F |].
  destruct ((pc s <? 0) || (pc s >=? code_len m)); [apply step_rel_tick_rel, step_rel_pass, F |].
  destruct (decode _) as [| | i size].
  - apply step_rel_tick_rel, step_rel_skip, do_trap_step_rel, F.
  - apply step_rel_tick_rel, step_rel_pass, F.
  - destruct (no_literal m i); [apply step_rel_tick_rel, step_rel_pass, F |].
    apply end_check_tick_rel, settle_step_rel, F.
Qed.

Lemma tick_ext m s : ext (events s) (events (tstate (tick m s))).
Proof. apply (tick_frame m s false 0). Qed.

Lemma tick_eqh m s1 s2 s2' : eqh s1 s2 -> tick m s2 = Next s2' ->
  exists s1', tick m s1 = Next s1' /\ eqh s1' s2' /\
    (halted s1 = false -> halted s2 = false ->
     halted s2' = halted s1' /\ (halted s1' = true -> s2' = s1')).
Proof.
  intros E T2. rewrite (eqh_is_set_halt _ _ E) in T2.
  destruct (tick_frame m s1 (halted s2) (reason s2)) as [_ [C P]]. rewrite T2 in C, P.
  destruct (tick m s1) as [s1' | |]; try discriminate C. exists s1'.
  split; [reflexivity |]. split; [exact (f_equal tstate C) |]. intros H1 H2.
  destruct (P (eq_trans H2 (eq_sym H1))) as [[[_ [Hh _]] Q] | [_ [Hh Q]]]; injection Q as ->; simpl in *.
  - rewrite Hh, H1. split; [exact H2 | discriminate].
  - split; reflexivity.
Qed.
