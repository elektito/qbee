(* C14 - [canon] is invariant under every rewriting of the catalogue of
   Models/Lex.v (r_case, r_blank, r_comment, r_relop) and under all finite
   compositions of them, in either direction. *)
From Coq Require Import ZArith List Bool.
From QV Require Import Sx Strs Lex LexChars LexSpan LexTok LexLayout.
Import ListNotations.
Open Scope Z_scope.

Lemma canon_lex s l tail :
  lex_layout s = (l, tail) -> canon s = render (normalise (map snd l)).
Proof. intro H. unfold canon, lex. now rewrite H. Qed.

Lemma canon_layout l tail :
  lay_ok l (hd_error tail) = true -> forallb is_blank tail = true ->
  canon (unlex l tail) = render (normalise (map snd l)).
Proof. intros H1 H2. apply (canon_lex _ l tail). now apply relex. Qed.

Definition norm_lay (l : list ltok) : list token := flat_map norm_tok (map snd l).

Lemma norm_lay_app a b : norm_lay (a ++ b) = norm_lay a ++ norm_lay b.
Proof. unfold norm_lay. now rewrite map_app, flat_map_app. Qed.

Lemma norm_lay_cons ws t l : norm_lay ((ws, t) :: l) = norm_tok t ++ norm_lay l.
Proof. reflexivity. Qed.

(* the frame of every invariance proof: the new layout is a lexer image and
   normalises to the same token lines *)
Lemma canon_same s l tail l' tail' :
  lex_layout s = (l, tail) ->
  lay_ok l' (hd_error tail') = true -> forallb is_blank tail' = true ->
  filter keep_line (lines (norm_lay l')) = filter keep_line (lines (norm_lay l)) ->
  canon (unlex l' tail') = canon s.
Proof.
  intros Hs H1 H2 Hn. rewrite (canon_lex s l tail Hs), (canon_layout l' tail' H1 H2).
  unfold normalise. now fold (norm_lay l) (norm_lay l'); rewrite Hn.
Qed.

Lemma respell_canon s l1 ws t l2 tail ws' t' :
  lex_layout s = (l1 ++ (ws, t) :: l2, tail) ->
  (fits l1 ws t -> fits l1 ws' t') ->
  (forall oc, stops t oc = true -> stops t' oc = true) ->
  norm_tok t' = norm_tok t ->
  canon (unlex (l1 ++ (ws', t') :: l2) tail) = canon s.
Proof.
  intros Hl Hf Hs Hn. destruct (lex_lay_ok _ _ _ Hl) as (_ & Hok & Htl).
  apply lay_ok_mid in Hok as (F & S & L2).
  apply (canon_same _ _ _ _ _ Hl); [|exact Htl|].
  - apply lay_ok_mid. auto.
  - now rewrite !norm_lay_app, !norm_lay_cons, Hn.
Qed.

Lemma same_case_word a b : same_case a b -> is_word a = is_word b.
Proof.
  unfold same_case. destruct a as [|c r], b as [|c' r']; try discriminate; [reflexivity|].
  intros [= Hc Hr]. cbn [is_word]. rewrite (lower_ch_alpha _ _ Hc). f_equal.
  revert r' Hr. induction r as [|x r IH]; intros [|x' r']; try discriminate; [reflexivity|].
  intros [= Hx Hr]. cbn [forallb]. now rewrite (lower_ch_alnum _ _ Hx), (IH _ Hr).
Qed.

Lemma same_case_kw a b :
  same_case a b -> is_word b = is_word a /\ is_rem b = is_rem a /\ is_dat b = is_dat a.
Proof.
  intro H. rewrite (same_case_word a b H). unfold is_rem, is_dat. now rewrite H.
Qed.

Lemma stops_case p c c' :
  is_alpha c = true -> lower_ch c = lower_ch c' ->
  stops p (Some c) = stops p (Some c').
Proof.
  intros Ha H. pose proof Ha as Ha'. rewrite (lower_ch_alpha _ _ H) in Ha'.
  assert (Hho : is_ho c = is_ho c') by (unfold is_ho; now rewrite H).
  destruct (alpha_classes c Ha) as (A1 & A2 & A3 & A4 & A5 & A6 & A7 & A8 & A9).
  destruct (alpha_classes c' Ha') as (B1 & B2 & B3 & B4 & B5 & B6 & B7 & B8 & B9).
  destruct p as [| | | | [|x [|y o]] | | | | |]; cbn [stops]; unfold onhd, ohd, at_eol;
    rewrite ?A1, ?A2, ?A3, ?A4, ?A5, ?A6, ?A7, ?A8, ?A9, ?B1, ?B2, ?B3, ?B4, ?B5, ?B6, ?B7, ?B8, ?B9,
      ?Hho; reflexivity.
Qed.

Lemma lay_ok_case l1 (ws : str) run run' rest rest' :
  is_word run = true -> same_case run run' ->
  lay_ok l1 (hd_error (ws ++ run ++ rest)) = true ->
  lay_ok l1 (hd_error (ws ++ run' ++ rest')) = true.
Proof.
  intros Hw Hc. destruct ws as [|b ws]; [|auto].
  destruct run as [|c r], run' as [|c' r']; try discriminate. injection Hc as Hc _.
  apply andb_true_iff in Hw as [Ha _]. apply lay_ok_next. intros p _.
  cbn [app hd_error]. now rewrite (stops_case p c c' Ha Hc).
Qed.

Lemma r_case_canon s s' : r_case s s' -> canon s' = canon s.
Proof.
  intros [s0 l1 ws run suf l2 tail run' Hl Hc
         | s0 l1 ws run p l2 tail run' Hl Hc
         | s0 l1 ws run b l2 tail run' Hl Hc].
  (* [stops] does not look at the spelling of a word or keyword at all (the
     third premise is an identity, left to [auto]); [tok_ok] sees it through
     is_word, is_rem and is_dat only *)
  all: eapply respell_canon; [exact Hl | | auto | cbn [norm_tok]; now rewrite Hc].
  all: destruct (same_case_kw _ _ Hc) as (Ew & Er & Ed).
  all: unfold fits; cbn [tok_ok text]; rewrite ?Ew, ?Er, ?Ed; intros (L & B & T).
  all: split; [|now split].
  all: destruct (is_word run) eqn:Hw; [|discriminate T].
  all: exact (lay_ok_case l1 ws run run' _ _ Hw Hc L).
Qed.

Lemma r_blank_canon s s' : r_blank s s' -> canon s' = canon s.
Proof.
  intros [s0 l1 ws t l2 tail ws' Hl Hw Hs | s0 l tail tail' Hl Hw Hs].
  - apply (respell_canon _ _ _ _ _ _ ws' t Hl); auto.
    intros (L & _ & T). repeat split; auto. now apply (tail_ok_lay _ _ _ L).
  - destruct (lex_lay_ok _ _ _ Hl) as (_ & Hok & _).
    apply (canon_same _ _ _ _ _ Hl); [|exact Hw|reflexivity].
    exact (tail_ok_lay _ _ _ Hok Hs).
Qed.

Lemma lines_nonempty l : lines l <> [].
Proof.
  induction l as [|t l IH]; [discriminate|]. simpl.
  destruct t; destruct (lines l); discriminate.
Qed.

Lemma lines_cons t l :
  t <> TNewline ->
  lines (t :: l) = match lines l with h :: tl => (t :: h) :: tl | [] => [[t]] end.
Proof. destruct t; try reflexivity. congruence. Qed.

Lemma lines_app_nl a b : lines (a ++ TNewline :: b) = lines a ++ lines b.
Proof.
  induction a as [|t a IH]; [reflexivity|].
  destruct t; try (cbn [app lines]; rewrite IH;
    destruct (lines a) as [|h tl] eqn:E; [now destruct (lines_nonempty a) | reflexivity]).
Qed.

Lemma line_start_lines l1 :
  line_start l1 = true -> exists LA, forall Y, lines (norm_lay l1 ++ Y) = LA ++ lines Y.
Proof.
  unfold line_start. destruct l1 as [|[ws t] l0 _] using rev_ind; [now exists []|].
  rewrite last_tok_snoc. destruct t; try discriminate. exists (lines (norm_lay l0)). intro Y.
  rewrite norm_lay_app, <- app_assoc. apply lines_app_nl.
Qed.

Lemma line_start_lay l1 oc oc' :
  line_start l1 = true -> lay_ok l1 oc = true -> lay_ok l1 oc' = true.
Proof.
  intros Hs. apply lay_ok_next. intros p E _. unfold line_start in Hs. rewrite E in Hs.
  now destruct p.
Qed.

Lemma insert_canon s l1 l2 tail seg X :
  lex_layout s = (l1 ++ l2, tail) -> line_start l1 = true ->
  (forall nxt, lay_ok seg nxt = true) ->
  norm_lay seg = X ++ [TNewline] -> lines X = [X] -> keep_line X = false ->
  canon (unlex (l1 ++ seg ++ l2) tail) = canon s.
Proof.
  intros Hl Hst Hseg Hnt HX Hk. destruct (lex_lay_ok _ _ _ Hl) as (_ & Hok & Htl).
  rewrite lay_ok_app in Hok. apply andb_true_iff in Hok as [O1 O2].
  apply (canon_same _ _ _ _ _ Hl); [|exact Htl|].
  - now rewrite !lay_ok_app, Hseg, O2, (line_start_lay _ _ _ Hst O1).
  - destruct (line_start_lines l1 Hst) as [LA HLA].
    rewrite !norm_lay_app, Hnt, !HLA, <- app_assoc. cbn [app].
    rewrite lines_app_nl, HX, !filter_app. cbn [filter]. now rewrite Hk.
Qed.

Lemma rem_tok_ok kw b :
  is_word kw && is_rem kw = true -> rem_body_ok b = true -> tok_ok (TRem kw b) = true.
Proof. unfold rem_body_ok. cbn [tok_ok]. now intros ->. Qed.

Lemma r_comment_canon s s' : r_comment s s' -> canon s' = canon s.
Proof.
  intros [s0 l1 ws b l2 tail b' Hl Hb
         | s0 l1 ws kw b l2 tail b' Hl Hb
         | s0 l1 ws l2 tail ws1 b Hl Hw Hb Hs
         | s0 l tail b Hl Hb Hs
         | s0 l1 l2 tail ws Hl Hst Hw
         | s0 l1 l2 tail ws b Hl Hst Hw Hb
         | s0 l1 l2 tail ws kw b Hl Hst Hw Hk Hb].
  - apply (respell_canon _ _ _ _ _ _ ws (TApos b') Hl); auto.
    intros (L & B & _). repeat split; auto. now destruct ws.
  - apply (respell_canon _ _ _ _ _ _ ws (TRem kw b') Hl); auto.
    intros (L & B & T). cbn [tok_ok text] in *.
    apply andb_true_iff in T as [[[K _]%andb_true_iff _]%andb_true_iff _].
    repeat split; [|exact B|exact (rem_tok_ok kw b' K Hb)].
    destruct kw as [|c kw]; [discriminate|]. now destruct ws.
  - destruct (lex_lay_ok _ _ _ Hl) as (_ & Hok & Htl).
    apply lay_ok_mid in Hok as ((L & _) & _ & L2).
    apply (canon_same _ _ _ _ _ Hl); [|exact Htl|now rewrite !norm_lay_app, !norm_lay_cons].
    apply lay_ok_mid. repeat split; auto. now apply (tail_ok_lay _ _ _ L).
  - destruct (lex_lay_ok _ _ _ Hl) as (_ & Hok & Htl).
    apply (canon_same _ _ _ _ _ Hl); [|reflexivity|].
    + apply lay_ok_mid. repeat split; auto. now apply (tail_ok_lay _ _ _ Hok).
    + rewrite norm_lay_app, norm_lay_cons. cbn [norm_tok norm_lay map flat_map app].
      now rewrite app_nil_r.
  - apply (insert_canon _ _ _ _ [(ws, TNewline)] [] Hl Hst); try reflexivity.
    intro nxt. cbn. now rewrite Hw.
  - apply (insert_canon _ _ _ _ [(ws, TApos b); ([], TNewline)] [] Hl Hst); try reflexivity.
    intro nxt. cbn. now rewrite Hw, Hb.
  - apply (insert_canon _ _ _ _ [(ws, TRem kw b); ([], TNewline)] [TRem (lower kw) []] Hl Hst);
      try reflexivity.
    intro nxt. cbn [lay_ok stops hd_lay app text hd_error at_eol forallb].
    now rewrite Hw, (rem_tok_ok kw b Hk Hb).
Qed.

Lemma r_relop_canon s s' : r_relop s s' -> canon s' = canon s.
Proof.
  intros [s0 l1 ws o l2 tail o' Hl Ho Ho' Hn Hs].
  destruct o' as [|c [|d [|e o']]]; try discriminate.
  apply (respell_canon _ _ _ _ _ _ ws (TOp [c; d]) Hl).
  - intros (L & B & _). repeat split; auto. now apply (tail_ok_lay _ _ _ L).
  - reflexivity.
  - cbn [norm_tok]. now rewrite Hn.
Qed.

Theorem canon_invariant s s' : rewrite1 s s' -> canon s' = canon s.
Proof.
  destruct 1; auto using r_case_canon, r_blank_canon, r_comment_canon, r_relop_canon.
Qed.

Theorem canon_invariant_star s s' : rewrites s s' -> canon s' = canon s.
Proof.
  induction 1 as [s | s s1 s2 H1 _ IH | s s1 s2 H1 _ IH].
  - reflexivity.
  - rewrite IH. now apply canon_invariant.
  - rewrite IH. symmetry. now apply canon_invariant.
Qed.

Lemma rewrites_trans a b c : rewrites a b -> rewrites b c -> rewrites a c.
Proof.
  induction 1; intro H2; [exact H2 | |].
  - eapply rws_step; eauto.
  - eapply rws_back; eauto.
Qed.

Lemma rewrites_sym a b : rewrites a b -> rewrites b a.
Proof.
  induction 1 as [s | s s1 s2 H1 _ IH | s s1 s2 H1 _ IH].
  - apply rws_refl.
  - apply (rewrites_trans _ _ _ IH). eapply rws_back; [exact H1 | apply rws_refl].
  - apply (rewrites_trans _ _ _ IH). eapply rws_step; [exact H1 | apply rws_refl].
Qed.
