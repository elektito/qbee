(* Soundness of the extracted checker Targets.targets_ok. *)
From Coq Require Import ZArith List Bool Lia.
From QV Require Import Sx Strs Fl Machine Cpu Instrs Codec Targets.
Import ListNotations.
Open Scope Z_scope.

Lemma frame_of_app pre x : frame_of (pre ++ [x]) = frame_step (frame_of pre) (snd x).
Proof. unfold frame_of. rewrite fold_left_app. reflexivity. Qed.

Lemma frame_step_cases i :
  (exists p l, i = IFrame p l) \/ (forall cur, frame_step cur i = cur).
Proof. destruct i; try (right; reflexivity). left. eauto. Qed.

Lemma frame_of_nearest pre : forall size, frame_of pre = Some size -> nearest_frame pre size.
Proof.
  induction pre as [|x pre IH] using rev_ind; intros size H.
  - discriminate.
  - rewrite frame_of_app in H. destruct x as [off i]. simpl in H.
    destruct (frame_step_cases i) as [(p & l & ->) | N].
    + simpl in H. injection H as <-.
      exists pre, off, p, l, []. repeat split. constructor.
    + rewrite N in H. apply IH in H.
      destruct H as (pre1 & foff & p & l & mid & -> & -> & F).
      exists pre1, foff, p, l, (mid ++ [(off, i)]). repeat split.
      * rewrite <- app_assoc. reflexivity.
      * apply Forall_app. split; [assumption|]. constructor; [|constructor].
        (* a frame instruction would have changed the declared size *)
        simpl. intros (p' & l' & ->). discriminate (N None).
Qed.

Lemma if_nil_true {A} (b : bool) (x : A) r : (if b then [] else [x]) ++ r = [] -> b = true /\ r = [].
Proof. destruct b; simpl; intros H; [auto | discriminate]. Qed.

Lemma walk_sound starts ng : forall l cur,
  targets_walk starts ng cur l = [] ->
  forall l1 off i l2, l = l1 ++ (off, i) :: l2 ->
    target_okb starts i = true /\
    local_okb (fold_left (fun cur e => frame_step cur (snd e)) l1 cur) i = true /\
    global_okb ng i = true.
Proof.
  induction l as [|[o j] r IH]; intros cur H l1 off i l2 E.
  - destruct l1; discriminate.
  - cbn [targets_walk] in H.
    apply if_nil_true in H as (H1 & H). apply if_nil_true in H as (H2 & H).
    apply if_nil_true in H as (H3 & H).
    destruct l1 as [|y l1]; simpl in E.
    + injection E as -> -> ->. auto.
    + injection E as <- ->. exact (IH _ H _ _ _ _ eq_refl).
Qed.

Lemma zin_In z l : zin z l = true -> In z l.
Proof.
  unfold zin. rewrite existsb_exists. intros (x & I & E). apply Z.eqb_eq in E. now subst.
Qed.

Theorem targets_ok_sound prog ng : targets_ok prog ng = true -> targets_spec prog ng.
Proof.
  unfold targets_ok, targets_fails. intros H.
  destruct (targets_walk (map fst prog) ng None prog) eqn:W; [|discriminate].
  intros pre off i post E.
  destruct (walk_sound _ _ prog None W pre off i post E) as (T & L & G).
  fold (frame_of pre) in L. split; [|split].
  - intros t J. unfold target_okb in T. rewrite J in T. now apply zin_In.
  - intros a b X. unfold local_okb in L. rewrite X in L.
    destruct (frame_of pre) as [size|] eqn:F; [|discriminate].
    exists size. split; [now apply frame_of_nearest | lia].
  - intros a b X. unfold global_okb in G. rewrite X in G. lia.
Qed.
