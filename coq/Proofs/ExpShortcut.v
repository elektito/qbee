(* The executable IExp (Models/Cpu.v exp_tail: guard + shortcut for exponents above 64) is
   the same function as the direct transcription exp_tail_ref (a ** b, then push). *)
From Coq Require Import ZArith Bool Lia ZifyBool.
From QV Require Import Cell Machine Cpu.
Open Scope Z_scope.

Lemma pow_big x y : 64 < y -> 1 < Z.abs x -> 2 ^ 65 <= Z.abs (x ^ y).
Proof.
  intros Hy Hx. rewrite Z.abs_pow.
  apply Z.le_trans with (2 ^ y).
  - apply Z.pow_le_mono_r; lia.
  - apply Z.pow_le_mono_l; lia.
Qed.

Lemma pow_small x y : 64 < y -> Z.abs x <= 1 ->
  x ^ y = (if x =? 0 then 0 else if x =? 1 then 1 else if Z.odd y then -1 else 1).
Proof.
  intros Hy Hx.
  destruct (Z.eqb_spec x 0) as [-> | E0]; [apply Z.pow_0_l; lia|].
  destruct (Z.eqb_spec x 1) as [-> | E1]; [apply Z.pow_1_l; lia|].
  assert (x = -1) by lia. subst x. change (-1) with (- (1)) at 1.
  destruct (Z.odd y) eqn:Eo.
  - rewrite Z.pow_opp_odd by (apply Z.odd_spec; exact Eo). rewrite Z.pow_1_l by lia. reflexivity.
  - rewrite Z.pow_opp_even by (apply Z.even_spec; rewrite <- Z.negb_odd, Eo; reflexivity).
    apply Z.pow_1_l. lia.
Qed.

Lemma py_pow_int_nonneg x y : 0 <= y -> py_pow (PInt x) (PInt y) = PowV (PInt (x ^ y)).
Proof. intros H. unfold py_pow. destruct (y >=? 0) eqn:E; [reflexivity|lia]. Qed.

Theorem exp_tail_same a b s : exp_tail a b s = exp_tail_ref a b s.
Proof.
  unfold exp_tail, exp_tail_ref.
  destruct a as [x|x| | | |], b as [y|y| | | |]; try reflexivity;
    cbn [pow_surely_overflows pow_small_base pv cell_ty];
    (destruct (y >? 64) eqn:Ey; [|reflexivity]); cbn [andb];
    rewrite py_pow_int_nonneg by lia.
  all: destruct (Z.abs x >? 1) eqn:Ex.
  1,3: (* certain overflow: the push of x ^ y traps with the same code on the same state *)
    pose proof (pow_big x y ltac:(lia) ltac:(lia)) as Hb;
    unfold push, bind, mk_cell, in_int, in_long; destruct (_ && _) eqn:E; [lia|reflexivity].
  all: replace (Z.abs x <=? 1) with true by lia; rewrite <- pow_small by lia; reflexivity.
Qed.
