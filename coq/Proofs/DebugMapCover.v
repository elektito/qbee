(* C11_body_covered_partial: every address inside a Block's range is attributed to a
   statement record (property C11).  Continues Proofs/DebugMapFinalize.v. *)
From Coq Require Import ZArith List Bool Lia.
From QV Require Import DebugMap DebugMapProofs DebugMapFinalize.
Import ListNotations.
Open Scope Z_scope.

(* Generator-shaped streams.

   [flat]: instructions and empty-block markers only (condition code, jumps,
   frame/ret ...).

   [good allow_ins l]: a statement sequence as gen_code_for_block and the
   block generators emit it.
   - a non-block statement is  Start n; (instructions | statements)*; End n
   - a Block is  Start n; pre; mid; post; End n  where pre and post are flat
     and mid is a statement sequence WITHOUT bare instructions between the
     child statements (gen_loop, gen_for_block, gen_while_block, gen_if_block,
     gen_select_block, gen_sub_block, gen_func_block all have this shape:
     the ELSEIF/ELSE/CASE code between two bodies is itself inside markers)
   - the guard of a Block: some code inside mid, or an _empty_block marker at
     an offset strictly before the end of the block
   - bare instructions are allowed only where [allow_ins] is true: the
     program level (call/halt/frame/ret of the main routine) and inside
     non-block statements. *)
Inductive flat : list item -> Prop :=
| flat_nil : flat []
| flat_ins sz l : 0 < sz -> flat l -> flat (Ins sz :: l)
| flat_empty l : flat l -> flat (EmptyBlock :: l).

Definition block_guard (pre mid post : list item) : Prop :=
  0 < size mid \/
  exists a, In a (empties_at 0 (pre ++ mid ++ post)) /\ a < size (pre ++ mid ++ post).

Inductive good : bool -> list item -> Prop :=
| good_nil b : good b []
| good_ins sz l : 0 < sz -> good true l -> good true (Ins sz :: l)
| good_empty b l : good b l -> good b (EmptyBlock :: l)
| good_stmt b n body l :
    nk n = KStmt -> good true body -> good b l ->
    good b (Start n :: body ++ End n :: l)
| good_block b n pre mid post l :
    is_block_node n = true -> flat pre -> good false mid -> flat post ->
    block_guard pre mid post -> good b l ->
    good b (Start n :: (pre ++ mid ++ post) ++ End n :: l).

Definition within (r : rec) (lo hi : Z) : Prop := lo <= r_start r /\ r_end r <= hi.
Definition covers (r : rec) (addr : Z) : Prop := r_start r <= addr < r_end r.
(* outside of, or covering, the range lo..hi *)
Definition ooc (r : rec) (lo hi : Z) : Prop :=
  r_end r <= lo \/ hi <= r_start r \/ (r_start r <= lo /\ hi <= r_end r).
Definition covered (T : list rec) (lo hi : Z) : Prop :=
  forall addr, lo <= addr < hi -> exists r, In r T /\ covers r addr /\ within r lo hi.

(* linear arithmetic on the bounds of records *)
Ltac ranges := unfold within, covers, ooc in *; simpl; lia.

Lemma covered_incl T T' lo hi : incl T T' -> covered T lo hi -> covered T' lo hi.
Proof.
  intros I C addr Ha. destruct (C addr Ha) as (r & Hr & H). exists r. split; [apply I, Hr | exact H].
Qed.

Lemma covered_join T a b c : a <= b <= c -> covered T a b -> covered T b c -> covered T a c.
Proof.
  intros Hb C1 C2 addr Ha.
  destruct (Z_lt_ge_dec addr b) as [L|G];
    [destruct (C1 addr) as (r & Hr & Hc & Hw) | destruct (C2 addr) as (r & Hr & Hc & Hw)];
    try lia; exists r; (split; [exact Hr|]); (split; [exact Hc|]); ranges.
Qed.

Lemma is_child_iff bs be r :
  is_child bs be r = true <-> bs <= r_start r /\ r_end r <= be /\ r_start r < r_end r.
Proof.
  unfold is_child, rsize. lia.
Qed.

Lemma block_stmts_some n : is_block_node n = true -> exists ss es, block_stmts (nk n) = Some (ss, es).
Proof. unfold is_block_node, block_stmts. destruct (nk n); try discriminate; eauto. Qed.

(* One iteration of finalize, on any table.
   The block bs..be has a middle part ms..me that the table covers already.
   Every non-empty record of the table lies in the middle part, or outside of
   the block, or spans it.  Then the two synthesised records close the gaps:
   below the first child and above the last one, or on both sides of a marker
   when there is no child (the middle part is empty then). *)
Lemma process_block_covers emp T n bs be ms me :
  is_block_node n = true -> bs <= ms -> me <= be ->
  (forall r, In r T -> r_start r < r_end r -> within r ms me \/ ooc r bs be) ->
  covered T ms me ->
  (ms < me \/ exists a, In a emp /\ bs <= a < be) ->
  exists synth, process_block emp T (n, bs, be) = T ++ synth /\
    (forall r, In r synth -> within r bs be) /\ covered (T ++ synth) bs be.
Proof.
  intros K L1 L2 CH Cm G. destruct (block_stmts_some n K) as (ss & es & BS).
  destruct (process_block_spec emp T n bs be ss es BS)
    as [[-> N]|(c0 & ck & [I0 C0] & [Ik Ck] & ->)]; eexists; (split; [reflexivity|]).
  - destruct G as [G|(a & Ha & La)].
    { destruct (Cm ms) as (r & Hr & Hc & Hw); [lia|].
      assert (C : is_child bs be r = true) by (apply is_child_iff; ranges).
      rewrite (N r Hr) in C. discriminate. }
    split.
    + intros r Hr. apply in_marker_records in Hr.
      destruct Hr as (a' & _ & La' & [-> | ->]); ranges.
    + intros addr Haddr.
      destruct (Z_lt_ge_dec addr a); [exists (mkRec ss bs a) | exists (mkRec es a be)];
        (split; [apply in_or_app; right; apply in_marker_records; exists a; auto
                | ranges]).
  - pose proof (proj1 (is_child_iff _ _ _) C0) as R0.
    pose proof (proj1 (is_child_iff _ _ _) Ck) as Rk. split.
    + intros r [<-|[<-|[]]]; ranges.
    + intros addr Haddr.
      destruct (Z_lt_ge_dec addr (r_start c0)) as [L0|G0].
      { exists (mkRec ss bs (r_start c0)).
        split; [apply in_elt | ranges]. }
      destruct (Z_lt_ge_dec addr (r_end ck)) as [Lk|Gk].
      2:{ exists (mkRec es (r_end ck) be).
          split; [apply in_or_app; right; right; left; reflexivity | ranges]. }
      (* from the first child to the last: a child that spans the block, or
         both lie in the middle part, and so does addr *)
      destruct (CH c0 I0 (proj2 (proj2 R0))) as [[X0 _]|X0].
      2:{ exists c0. split; [apply in_or_app; left; exact I0 | ranges]. }
      destruct (CH ck Ik (proj2 (proj2 Rk))) as [[_ Xk]|Xk].
      2:{ exists ck. split; [apply in_or_app; left; exact Ik | ranges]. }
      destruct (Cm addr) as (r & Hr & Hc & Hw); [lia|]. exists r.
      split; [apply in_or_app; left; exact Hr|]. split; [exact Hc | ranges].
Qed.

Lemma flat_wf l : flat l -> wf_markers l.
Proof. induction 1; constructor; auto. Qed.

Lemma nodes_at_flat l : flat l -> forall off, nodes_at off l = [].
Proof.
  induction 1; intros off.
  - reflexivity.
  - rewrite nodes_at_ins. auto.
  - rewrite nodes_at_empty by (apply flat_wf; auto). auto.
Qed.

Lemma empties_shift l : wf_markers l -> forall off d,
  empties_at (off + d) l = map (fun a => a + d) (empties_at off l).
Proof.
  induction 1 as [|sz l Hsz Hl IH|l Hl IH|n body l Hb IHb Hl IHl]; intros off d.
  - reflexivity.
  - rewrite !empties_at_ins, <- IH. f_equal. lia.
  - rewrite !empties_at_empty by assumption. simpl. rewrite IH. reflexivity.
  - rewrite !empties_at_node, map_app, <- IHb, <- IHl by assumption. do 2 f_equal. lia.
Qed.

Lemma stmts_range l : wf_markers l -> forall off r,
  In r (stmts_of (nodes_at off l)) -> within r off (off + size l).
Proof.
  intros H off r Hin. apply in_stmts_of in Hin. destruct Hin as (n & s & e & Hin & _ & ->).
  apply (collected_spans l H off) in Hin. ranges.
Qed.

Lemma node_split n body l :
  Start n :: body ++ End n :: l = (Start n :: body ++ [End n]) ++ l.
Proof. simpl. rewrite <- app_assoc. reflexivity. Qed.

Lemma chunk_nodes off n body : wf_markers body ->
  nodes_at off (Start n :: body ++ [End n]) = nodes_at off body ++ [(n, off, off + size body)].
Proof. intros H. exact (nodes_at_node off n body [] H wf_nil). Qed.

Lemma chunk_empties off n body : wf_markers body ->
  empties_at off (Start n :: body ++ [End n]) = empties_at off body.
Proof. intros H. rewrite (empties_at_node off n body [] H wf_nil). apply app_nil_r. Qed.

Lemma chunk_size n body : size (Start n :: body ++ [End n]) = size body.
Proof. simpl. rewrite size_app. simpl. lia. Qed.

Lemma block_body_nodes off pre mid post : flat pre -> wf_markers mid -> flat post ->
  nodes_at off (pre ++ mid ++ post) = nodes_at (off + size pre) mid.
Proof.
  intros Fpre Wm Fpost.
  rewrite !nodes_at_app by auto using flat_wf, wf_app.
  rewrite (nodes_at_flat pre), (nodes_at_flat post) by assumption. apply app_nil_r.
Qed.

Lemma block_guard_at off pre mid post : wf_markers (pre ++ mid ++ post) ->
  block_guard pre mid post ->
  0 < size mid \/
  exists a, In a (empties_at off (pre ++ mid ++ post)) /\ off <= a < off + size (pre ++ mid ++ post).
Proof.
  intros W [G|(a & Ha & La)]; [left; exact G | right]. exists (a + off). split.
  - apply (in_map (fun a => a + off)) in Ha. rewrite <- empties_shift in Ha by assumption. exact Ha.
  - apply (collected_spans _ W 0) in Ha. lia.
Qed.

(* The invariant:
   finalize works through the blocks of a piece l of the stream, laid out from
   off, on a table T: T holds the statements of l, and every other non-empty
   record of T lies outside the range of l or covers it. *)
Definition hyps (off : Z) (l : list item) (T : list rec) (emp : list Z) : Prop :=
  (forall r, In r T -> r_start r < r_end r ->
             In r (stmts_of (nodes_at off l)) \/ ooc r off (off + size l)) /\
  incl (stmts_of (nodes_at off l)) T /\
  incl (empties_at off l) emp.

(* ... it only appends records inside the range of l, after which every block
   of l is covered, and all of l if l has no bare instructions *)
Definition result (b : bool) (off : Z) (l : list item) (T : list rec) (emp : list Z) : Prop :=
  exists synth,
    process_blocks emp (blocks_of (nodes_at off l)) T = T ++ synth /\
    (forall r, In r synth -> within r off (off + size l)) /\
    (forall n bs be, In (n, bs, be) (blocks_of (nodes_at off l)) -> covered (T ++ synth) bs be) /\
    (b = false -> covered (T ++ synth) off (off + size l)).

Definition piece_ok (b : bool) (l : list item) : Prop :=
  wf_markers l /\ forall off T emp, hyps off l T emp -> result b off l T emp.

Lemma hyps_app off h l T emp : wf_markers h -> wf_markers l ->
  hyps off (h ++ l) T emp -> hyps off h T emp /\ hyps (off + size h) l T emp.
Proof.
  intros Wh Wl (C & I & E).
  pose proof (wf_size_nonneg h Wh). pose proof (wf_size_nonneg l Wl).
  rewrite nodes_at_app, stmts_of_app in C, I by assumption.
  rewrite empties_at_app in E by assumption. rewrite size_app in C.
  apply incl_app_inv in I, E. destruct I as [Ih Il], E as [Eh El].
  (* a statement of one part lies outside the range of the other *)
  split; (split; [|split; assumption]); intros r Hr Hne;
    (destruct (C r Hr Hne) as [Hin|Ho]; [apply in_app_or in Hin; destruct Hin as [Hin|Hin]|]).
  - left. exact Hin.
  - right. apply (stmts_range l Wl) in Hin. ranges.
  - right. ranges.
  - right. apply (stmts_range h Wh) in Hin. ranges.
  - left. exact Hin.
  - right. ranges.
Qed.

(* into a node: its own record, if it has one, spans the body *)
Lemma hyps_inside off n body T emp : wf_markers body ->
  hyps off (Start n :: body ++ [End n]) T emp -> hyps off body T emp.
Proof.
  intros W (C & I & E).
  rewrite chunk_nodes, stmts_of_app in C, I by assumption.
  rewrite chunk_empties in E by assumption. rewrite chunk_size in C.
  apply incl_app_inv in I. destruct I as [I _].
  split; [|split; assumption].
  intros r Hr Hne. destruct (C r Hr Hne) as [Hin|Ho]; [|right; exact Ho].
  apply in_app_or in Hin. destruct Hin as [Hin|Hin]; [left; exact Hin | right].
  apply in_stmts_of in Hin. destruct Hin as (m & s & e & [Heq|[]] & _ & ->).
  inversion Heq. ranges.
Qed.

Lemma combine b h l : piece_ok b h -> piece_ok b l -> piece_ok b (h ++ l).
Proof.
  intros [Wh Rh] [Wl Rl]. split; [apply wf_app; assumption|]. intros off T emp H.
  pose proof (wf_size_nonneg h Wh). pose proof (wf_size_nonneg l Wl).
  destruct (hyps_app off h l T emp Wh Wl H) as [Hh Hl].
  destruct (Rh off T emp Hh) as (s1 & E1 & W1 & B1 & A1).
  destruct (Rl (off + size h) (T ++ s1) emp) as (s2 & E2 & W2 & B2 & A2).
  { (* the records made for h lie outside the range of l *)
    destruct Hl as (C & I & E). split; [|split; [apply incl_appl, I | exact E]].
    intros r Hr Hne. apply in_app_or in Hr. destruct Hr as [Hr|Hr]; [exact (C r Hr Hne) | right].
    apply W1 in Hr. ranges. }
  exists (s1 ++ s2). rewrite nodes_at_app, blocks_of_app, size_app, app_assoc by assumption.
  assert (I1 : incl (T ++ s1) ((T ++ s1) ++ s2)) by apply incl_appl, incl_refl.
  split; [|split; [|split]].
  - rewrite process_blocks_split, E1, E2. reflexivity.
  - intros r Hr. apply in_app_or in Hr.
    destruct Hr as [Hr|Hr]; [apply W1 in Hr | apply W2 in Hr]; ranges.
  - intros n bs be Hin. apply in_app_or in Hin. destruct Hin as [Hin|Hin].
    + apply (covered_incl _ _ _ _ I1), (B1 n), Hin.
    + apply (B2 n), Hin.
  - intros Eb. apply (covered_join _ _ (off + size h)); [lia| |].
    + apply (covered_incl _ _ _ _ I1), A1, Eb.
    + rewrite Z.add_assoc. apply A2, Eb.
Qed.

(* no nodes: nothing to do, and nothing to cover if nothing was emitted *)
Lemma bare_piece b l : flat l -> (b = false -> size l = 0) -> piece_ok b l.
Proof.
  intros F S. split; [apply flat_wf, F|]. intros off T emp _.
  exists []. rewrite (nodes_at_flat l F), app_nil_r.
  split; [reflexivity|]. split; [intros r []|]. split; [intros n bs be []|].
  intros Eb addr Ha. rewrite (S Eb) in Ha. lia.
Qed.

Lemma blocks_of_snoc ns n s e :
  blocks_of (ns ++ [(n, s, e)]) = blocks_of ns ++ (if is_block_node n then [(n, s, e)] else []).
Proof. apply blocks_of_app. Qed.

Lemma stmt_piece b n body : nk n = KStmt ->
  piece_ok true body -> piece_ok b (Start n :: body ++ [End n]).
Proof.
  intros K [Wb IH]. split; [apply wf_single, Wb|]. intros off T emp H.
  destruct (IH off T emp (hyps_inside off n body T emp Wb H)) as (s1 & E1 & W1 & B1 & _).
  destruct H as (_ & I & _).
  exists s1. rewrite chunk_nodes, blocks_of_snoc, chunk_size by assumption.
  unfold is_block_node. rewrite K, app_nil_r.
  split; [exact E1|]. split; [exact W1|]. split; [exact B1|].
  intros _ addr Ha. exists (mkRec (nid n) off (off + size body)). split.
  - apply in_or_app. left. apply I. rewrite chunk_nodes by assumption.
    apply in_stmts_of. exists n, off, (off + size body).
    split; [apply in_elt | auto].
  - ranges.
Qed.

Lemma block_piece b n pre mid post :
  is_block_node n = true -> flat pre -> flat post -> block_guard pre mid post ->
  piece_ok false mid -> piece_ok b (Start n :: (pre ++ mid ++ post) ++ [End n]).
Proof.
  intros K Fpre Fpost G [Wm IH].
  pose proof (flat_wf pre Fpre) as Wpre. pose proof (flat_wf post Fpost) as Wpost.
  assert (Wmp : wf_markers (mid ++ post)) by (apply wf_app; assumption).
  assert (Wbody : wf_markers (pre ++ mid ++ post)) by (apply wf_app; assumption).
  split; [apply wf_single, Wbody|]. intros off T emp H.
  pose proof (wf_size_nonneg pre Wpre). pose proof (wf_size_nonneg mid Wm).
  pose proof (wf_size_nonneg post Wpost).
  apply hyps_inside in H; [|assumption].
  assert (Hm : hyps (off + size pre) mid T emp).
  { apply hyps_app in H; [|assumption..]. destruct H as [_ H].
    apply hyps_app in H; [|assumption..]. apply H. }
  destruct H as (C & _ & E). rewrite block_body_nodes in C by assumption.
  destruct (IH _ T emp Hm) as (sm & Em & Wsm & Bm & Am). specialize (Am eq_refl).
  unfold result. rewrite chunk_nodes, blocks_of_snoc, K, block_body_nodes, chunk_size by assumption.
  set (ms := off + size pre) in *. set (be := off + size (pre ++ mid ++ post)) in *.
  assert (Sb : be = ms + size mid + size post) by (unfold be, ms; rewrite !size_app; lia).
  destruct (process_block_covers emp (T ++ sm) n off be ms (ms + size mid) K)
    as (sb & Eb & Wsb & Cb); [lia|lia| |exact Am| |].
  - (* a non-empty record: a statement of the middle part, a record made for a
       block of the middle part, or one outside of or spanning the block *)
    intros r Hr Hne. apply in_app_or in Hr. destruct Hr as [Hr|Hr]; [|left; exact (Wsm r Hr)].
    destruct (C r Hr Hne) as [Hin|Ho]; [left; exact (stmts_range mid Wm _ _ Hin) | right; exact Ho].
  - destruct (block_guard_at off pre mid post Wbody G) as [G1|(a & Ha & La)]; [left; lia|].
    right. exists a. split; [exact (E a Ha) | exact La].
  - exists (sm ++ sb). rewrite app_assoc. split; [|split; [|split]].
    + rewrite process_blocks_split, Em. exact Eb.
    + intros r Hr. apply in_app_or in Hr. destruct Hr as [Hr|Hr]; [|exact (Wsb r Hr)].
      apply Wsm in Hr. ranges.
    + intros m bs' be' Hin. apply in_app_or in Hin. destruct Hin as [Hin|[Hin|[]]].
      * apply (covered_incl (T ++ sm)); [apply incl_appl, incl_refl | exact (Bm m bs' be' Hin)].
      * inversion Hin; subst. exact Cb.
    + intros _. exact Cb.
Qed.

Lemma cover_main b l : good b l -> piece_ok b l.
Proof.
  induction 1 as [b|sz l Hsz Hl IH|b l Hl IH|b n body l K Hb IHb Hl IHl
                  |b n pre mid post l K Fpre Hm IHm Fpost G Hl IHl].
  - apply bare_piece; [apply flat_nil | reflexivity].
  - apply (combine true [Ins sz] l); [|exact IH].
    apply bare_piece; [apply flat_ins; [exact Hsz | apply flat_nil] | discriminate].
  - apply (combine b [EmptyBlock] l); [|exact IH].
    apply bare_piece; [apply flat_empty, flat_nil | reflexivity].
  - rewrite node_split. apply combine; [apply stmt_piece; assumption | exact IHl].
  - rewrite node_split. apply combine; [apply block_piece; assumption | exact IHl].
Qed.

Lemma good_wf b l : good b l -> wf_markers l.
Proof. intros G. exact (proj1 (cover_main b l G)). Qed.

Lemma blocks_covered l : good true l -> forall n bs be,
  In (n, bs, be) (blocks_of (nodes_at 0 l)) ->
  covered (finalize (empties_at 0 l) (blocks_of (nodes_at 0 l)) (stmts_of (nodes_at 0 l))) bs be.
Proof.
  intros G n bs be Hin.
  destruct (proj2 (cover_main true l G) 0 (stmts_of (nodes_at 0 l)) (empties_at 0 l))
    as (synth & E & _ & B & _).
  { split; [|split]; try apply incl_refl. intros r Hr _. left. exact Hr. }
  apply (covered_incl (stmts_of (nodes_at 0 l) ++ synth)); [|exact (B n bs be Hin)].
  rewrite <- E. intros r Hr. apply in_sort_by, Hr.
Qed.
