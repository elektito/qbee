(* C14 - one lexer step.  [cut t r s]: the token t, with r left over, is a
   valid way of cutting the front of the text s.
   next_tok_inv : what [next_tok] returns is a cut of its input;
   next_tok_spec: every cut is what [next_tok] returns ([relexes t r] has the
                  last two parts of [cut t r s] as hypotheses; the first part
                  only names s = text t ++ r). *)
From Coq Require Import ZArith List Bool.
From QV Require Import Sx Strs Lex LexChars LexSpan.
Import ListNotations.
Open Scope Z_scope.

Definition cut (t : token) (r s : str) : Prop :=
  text t ++ r = s /\ tok_ok t = true /\ stops t (hd_error r) = true.

Lemma eol_hd X : at_eol (hd_error X) = negb (hd_is not_nl X).
Proof. destruct X; [reflexivity|]. cbn. unfold not_nl. now rewrite negb_involutive. Qed.

Lemma nhd_prefix p (a X : str) : negb (hd_is p (a ++ X)) = true -> negb (hd_is p a) = true.
Proof. destruct a; auto. Qed.

Definition eol_kind (t : token) : bool :=
  match t with TStr _ false | TRem _ _ | TApos _ | TData _ _ => true | _ => false end.

(* besides the end of the line, one thing ends a token that runs to the end of
   its line: a colon after a DATA payload whose quotes are closed *)
Definition data_colon (t : token) : bool :=
  match t with TData _ p => negb (data_inq false p) | _ => false end.

Lemma stops_eol t oc :
  eol_kind t = true -> stops t oc = at_eol oc || (data_colon t && ohd is_colon oc).
Proof.
  destruct t as [| | | ? [|] | | | | | |]; try discriminate; intros _; cbn [stops data_colon orb andb];
    now rewrite ?orb_false_r.
Qed.

(* what comes after the body b of a token that runs to the end of its line
   does not begin with a character of a class without newline and colon *)
Lemma eol_body_hd q t (b X : str) :
  stops t (hd_error X) = true -> eol_kind t = true -> q 10 || q 58 = false ->
  hd_is q b = false -> hd_is q (b ++ X) = false.
Proof.
  intros Hst Ht [H10 H58]%orb_false_iff Hb. destruct b; [|exact Hb].
  rewrite (stops_eol t _ Ht) in Hst. destruct X as [|x X]; [reflexivity|].
  cbn in *. unfold is_colon in Hst.
  now apply orb_true_iff in Hst as [->%Z.eqb_eq | [_ ->%Z.eqb_eq]%andb_true_iff].
Qed.

(* a dot or an ampersand is an operator unless a number or an &H literal begins *)
Lemma stops_op c s :
  is_relch c = false ->
  stops (TOp [c]) (hd_error s) =
  negb ((c =? 46) && hd_is is_digit s) && negb ((c =? 38) && hd_is is_ho s).
Proof.
  intro Hr. cbn [stops]. rewrite Hr, !onhd_hd. destruct (c =? 46) eqn:E.
  - apply Z.eqb_eq in E as ->. cbn. now rewrite andb_true_r.
  - now destruct (c =? 38).
Qed.

Lemma lex_str_inv s t r : lex_str s = (t, r) -> cut t r (34 :: s).
Proof.
  unfold lex_str, cut. destruct (span is_strch s) as [body r0] eqn:E.
  apply span_inv in E as (-> & E2 & E3).
  destruct r0 as [|q r'].
  - intros [= <- <-]. auto.
  - destruct (q =? 34) eqn:Q; intros [= <- <-].
    + apply Z.eqb_eq in Q as ->. cbn [text app]. rewrite <- app_assoc. auto.
    + repeat split; [exact E2|]. cbn [hd_is] in E3. unfold is_strch in E3.
      now rewrite negb_involutive, Q in E3.
Qed.

Lemma lex_num_inv c s t r :
  (is_digit c || ((c =? 46) && hd_is is_digit s)) = true ->
  lex_num c s = (t, r) -> cut t r (c :: s).
Proof.
  intros Hc. unfold lex_num, cut.
  destruct (span is_numch s) as [run0 r0] eqn:E. apply span_inv in E as (-> & E2 & E3).
  rewrite (hd_in_run is_digit is_numch run0 r0 digit_numch E3) in Hc.
  destruct r0 as [|sg r'].
  - cbn [take_suffix]. intros [= <- <-]. cbn [text app tok_ok stops is_nil hd_error]. unfold onhd, ohd.
    rewrite !app_nil_r, Hc, E2, andb_false_r. auto.
  - destruct (is_sign sg && ends_exp (c :: run0)) eqn:Esg.
    + destruct (span is_alnum r') as [run2 r2] eqn:E'. apply span_inv in E' as (-> & F2 & F3).
      destruct (take_suffix is_numsuffix r2) as [suf r3] eqn:Ts.
      apply (take_suffix_stop _ is_alnum) in Ts as (-> & G2 & G3); [|exact F3].
      intros [= <- <-]. apply andb_true_iff in Esg as [S1 S2].
      split; [cbn [text]; now rewrite <- !app_assoc|].
      cbn [tok_ok stops is_nil]. split; [now rewrite Hc, E2, S1, S2, F2, G2 | exact G3].
    + destruct (take_suffix is_numsuffix (sg :: r')) as [suf r3] eqn:Ts.
      apply (take_suffix_stop _ is_numch) in Ts as (Er & G2 & G3); [|exact E3].
      intros [= <- <-]. split; [cbn [text app]; now rewrite Er, <- app_assoc|].
      cbn [tok_ok stops is_nil]. rewrite Hc, E2, G2. split; [reflexivity|].
      destruct suf as [|x suf]; [|reflexivity]. cbn [app] in Er. subst r3.
      cbn [is_nil negb orb] in *. rewrite andb_assoc, G3. cbn [hd_error ohd].
      now rewrite (andb_comm (ends_exp _)), Esg.
Qed.

Lemma lex_hex_inv s t r :
  hd_is is_ho s = true -> lex_hex s = (t, r) -> cut t r (38 :: s).
Proof.
  intros Hh. unfold lex_hex, cut.
  destruct (span is_alnum s) as [run r0] eqn:E. apply span_inv in E as (-> & E2 & E3).
  destruct (take_suffix is_numsuffix r0) as [suf r3] eqn:Ts.
  apply (take_suffix_stop _ is_alnum) in Ts as (-> & G2 & G3); [|exact E3].
  intros [= <- <-]. split; [cbn [text app]; now rewrite app_assoc|].
  rewrite (hd_in_run is_ho is_alnum run _ ho_alnum E3) in Hh.
  cbn [tok_ok stops]. now rewrite Hh, E2, G2.
Qed.

Lemma lex_word_inv c s t r :
  is_alpha c = true -> lex_word c s = (t, r) -> cut t r (c :: s).
Proof.
  intros Hc. unfold lex_word, cut.
  destruct (span is_alnum s) as [run0 r0] eqn:E. apply span_inv in E as (-> & E2 & E3).
  assert (Hw : is_word (c :: run0) = true) by (cbn [is_word]; now rewrite Hc, E2).
  destruct (negb (hd_is is_dollar r0)) eqn:Kd.
  - rewrite !andb_true_r. destruct (is_rem (c :: run0)) eqn:K1; [|destruct (is_dat (c :: run0)) eqn:K2].
    + destruct (span not_nl r0) as [b r1] eqn:Eb. apply span_inv in Eb as (-> & B2 & B3).
      intros [= <- <-]. split; [cbn [text app]; now rewrite app_assoc|].
      cbn [tok_ok stops]. rewrite Hw, K1, B2, (nhd_prefix _ _ _ Kd), (nhd_prefix _ _ _ E3), eol_hd.
      auto.
    + destruct (scan_data false r0) as [p r1] eqn:Ed. apply scan_data_inv in Ed as (-> & B2 & B3).
      intros [= <- <-]. split; [cbn [text app]; now rewrite app_assoc|].
      cbn [tok_ok stops]. rewrite Hw, K1, K2, B2, (nhd_prefix _ _ _ Kd), (nhd_prefix _ _ _ E3).
      auto.
    + destruct (take_suffix is_suffix r0) as [suf r1] eqn:Ts.
      apply (take_suffix_stop _ is_alnum) in Ts as (-> & G2 & G3); [|exact E3].
      intros [= <- <-]. split; [cbn [text app]; now rewrite app_assoc|].
      cbn [tok_ok stops]. now rewrite Hw, K1, K2, G2.
  - (* a $ follows: a word, even if it is spelled REM or DATA *)
    rewrite !andb_false_r. destruct r0 as [|d r0']; [discriminate|].
    apply negb_false_iff, Z.eqb_eq in Kd as ->.
    intros [= <- <-]. split; [cbn [text]; now rewrite <- app_assoc|].
    cbn [tok_ok stops]. rewrite Hw. now destruct (is_rem _ || is_dat _).
Qed.

Lemma lex_rel_inv c s t r :
  is_relch c = true -> op_start c = true -> lex_rel c s = (t, r) -> cut t r (c :: s).
Proof.
  intros Hr Ho. unfold lex_rel, cut. destruct s as [|d s'].
  - intros [= <- <-]. cbn [text tok_ok stops app]. rewrite Hr, Ho. auto.
  - destruct (is_relch d && negb (d =? c)) eqn:K; intros [= <- <-]; cbn [text tok_ok stops app].
    + apply andb_true_iff in K as [K1 K2]. rewrite Hr, K1, K2. auto.
    + rewrite Hr, Ho. unfold onhd, ohd. cbn [hd_error]. rewrite K. auto.
Qed.

Theorem next_tok_inv c s t r :
  is_blank c = false -> next_tok c s = (t, r) -> cut t r (c :: s).
Proof.
  intros Hb. unfold next_tok.
  destruct (c =? 10) eqn:C1.
  { intros [= <- <-]. apply Z.eqb_eq in C1 as ->. repeat split. }
  destruct (c =? 34) eqn:C2.
  { apply Z.eqb_eq in C2 as ->. apply lex_str_inv. }
  destruct (c =? 39) eqn:C3.
  { destruct (span not_nl s) as [b r0] eqn:E. apply span_inv in E as (-> & E2 & E3).
    intros [= <- <-]. apply Z.eqb_eq in C3 as ->. repeat split; [exact E2|].
    cbn [stops]. now rewrite eol_hd. }
  destruct (c =? 58) eqn:C4.
  { intros [= <- <-]. apply Z.eqb_eq in C4 as ->. repeat split. }
  destruct (is_digit c || ((c =? 46) && hd_is is_digit s)) eqn:C5.
  { now apply lex_num_inv. }
  destruct ((c =? 38) && hd_is is_ho s) eqn:C6.
  { apply andb_true_iff in C6 as [->%Z.eqb_eq C6]. now apply lex_hex_inv. }
  destruct (is_alpha c) eqn:C7.
  { now apply lex_word_inv. }
  apply orb_false_iff in C5 as [C5 C5'].
  assert (Hop : op_start c = true).
  { unfold op_start. now rewrite Hb, C1, C2, C3, C4, C5, C7. }
  destruct (is_relch c) eqn:C8.
  { now apply lex_rel_inv. }
  intros [= <- <-]. repeat split; [exact Hop|]. now rewrite (stops_op c s C8), C5', C6.
Qed.

Lemma next_tok_alpha c s : is_alpha c = true -> next_tok c s = lex_word c s.
Proof.
  intro H. unfold next_tok. rewrite !(class_ne _ c _ H) by reflexivity.
  now rewrite (alpha_not_digit c H), H.
Qed.

Lemma next_tok_num c run0 Y :
  (is_digit c || ((c =? 46) && hd_is is_digit run0)) = true ->
  is_blank c = false /\ next_tok c (run0 ++ Y) = lex_num c (run0 ++ Y).
Proof.
  intro H. unfold next_tok. destruct (is_digit c) eqn:D.
  - split; [now apply digit_not_blank|]. now rewrite !(class_ne _ c _ D) by reflexivity.
  - apply andb_true_iff in H as [->%Z.eqb_eq H]. destruct run0 as [|d run0]; [discriminate|].
    split; [reflexivity|]. cbn in *. now rewrite H.
Qed.

Lemma next_tok_amp s :
  next_tok 38 s = if hd_is is_ho s then lex_hex s else (TOp [38], s).
Proof. reflexivity. Qed.

Lemma next_tok_rel c s :
  is_relch c = true -> is_blank c = false /\ next_tok c s = lex_rel c s.
Proof. intros [-> | [-> | ->]]%relch_cases; now split. Qed.

Definition relexes (t : token) (X : str) : Prop :=
  tok_ok t = true -> stops t (hd_error X) = true ->
  exists c u, text t = c :: u /\ is_blank c = false /\ next_tok c (u ++ X) = (t, X).

Lemma spec_word run suf X : relexes (TWord run suf) X.
Proof.
  unfold relexes. cbn [tok_ok stops]. intros [Hw Hs]%andb_true_iff Hst.
  destruct run as [|c run0]; [discriminate|]. pose proof Hw as [Hc Hr]%andb_true_iff.
  exists c, (run0 ++ suf). split; [reflexivity|]. split; [now apply alpha_not_blank|].
  rewrite <- app_assoc, (next_tok_alpha c _ Hc). unfold lex_word.
  destruct (is_rem (c :: run0) || is_dat (c :: run0)) eqn:K.
  - (* spelled REM or DATA: the $ makes it a word *)
    apply str_eqb_eq in Hs as ->. rewrite (span_app _ run0 ([36] ++ X) Hr eq_refl).
    cbn [app hd_is]. change (is_dollar 36) with true. now rewrite !andb_false_r.
  - destruct (take_suffix_fit _ is_alnum suf X suffix_not_alnum Hs Hst) as [Ts Hn].
    rewrite (span_app _ _ _ Hr Hn), Ts. now apply orb_false_iff in K as [-> ->].
Qed.

Lemma spec_num run ext suf X : relexes (TNum run ext suf) X.
Proof.
  unfold relexes. cbn [tok_ok stops]. intros Hok Hst. destruct run as [|c run0]; [discriminate|].
  apply andb_true_iff in Hok as [[[Hc Hr]%andb_true_iff Hext]%andb_true_iff Hsuf].
  destruct (next_tok_num c run0 (ext ++ suf ++ X) Hc) as [Hb Hn].
  exists c, (run0 ++ ext ++ suf). split; [reflexivity|]. split; [exact Hb|].
  rewrite <- !app_assoc, Hn. unfold lex_num.
  destruct ext as [|sg run2]; cbn [is_nil] in Hst.
  - destruct suf as [|x [|y suf]]; [| |discriminate]; cbn [app is_nil suf_ok negb orb] in *.
    + rewrite !onhd_hd in Hst.
      apply andb_true_iff in Hst as [H1 [H2 H3%negb_true_iff]%andb_true_iff].
      rewrite (span_app _ _ _ Hr H2). destruct X as [|sg r']; [reflexivity|].
      cbn [hd_error ohd hd_is] in *. rewrite andb_comm, H3. cbn [take_suffix].
      apply negb_true_iff in H1. now rewrite H1.
    + rewrite (span_app _ run0 (x :: X) Hr) by (cbn [hd_is]; now rewrite (numsuffix_not_numch x Hsuf)).
      rewrite (numsuffix_not_sign x Hsuf). cbn [andb take_suffix]. now rewrite Hsuf.
  - apply andb_true_iff in Hext as [[Hsg Hee]%andb_true_iff Hr2].
    destruct (take_suffix_fit _ is_alnum suf X numsuffix_not_alnum Hsuf Hst) as [Ts Hn2].
    rewrite (span_app _ run0 ((sg :: run2) ++ suf ++ X) Hr)
      by (cbn [app hd_is]; now rewrite (sign_not_numch sg Hsg)).
    cbn [app]. rewrite Hsg, Hee. cbn [andb]. now rewrite (span_app _ _ _ Hr2 Hn2), Ts.
Qed.

Lemma spec_hex run suf X : relexes (THex run suf) X.
Proof.
  unfold relexes. cbn [tok_ok stops]. intros [[Hh Hr]%andb_true_iff Hsuf]%andb_true_iff Hst.
  destruct (take_suffix_fit _ is_alnum suf X numsuffix_not_alnum Hsuf Hst) as [Ts Hn].
  exists 38, (run ++ suf). split; [reflexivity|]. split; [reflexivity|].
  rewrite <- app_assoc, next_tok_amp, (hd_is_app _ run), Hh by (intros ->; discriminate Hh).
  unfold lex_hex. now rewrite (span_app _ _ _ Hr Hn), Ts.
Qed.

Lemma spec_str body closed X : relexes (TStr body closed) X.
Proof.
  unfold relexes. cbn [tok_ok stops]. intros Hok Hst.
  destruct closed; [exists 34, (body ++ [34]) | exists 34, body];
    (split; [reflexivity|]); (split; [reflexivity|]);
    change (next_tok 34 ?s) with (lex_str s); unfold lex_str.
  - rewrite <- app_assoc. cbn [app]. now rewrite (span_app _ body (34 :: X) Hok eq_refl).
  - destruct X as [|x X]; [now rewrite app_nil_r, (span_all _ _ Hok)|].
    apply Z.eqb_eq in Hst as ->. now rewrite (span_app _ body (10 :: X) Hok eq_refl).
Qed.

Lemma spec_data kw p X : relexes (TData kw p) X.
Proof.
  unfold relexes. cbn [tok_ok].
  intros [[[[[Hw Kr%negb_true_iff]%andb_true_iff Kd]%andb_true_iff Hp]%andb_true_iff
            Hd%negb_true_iff]%andb_true_iff Ha%negb_true_iff]%andb_true_iff Hst.
  destruct kw as [|c run0]; [discriminate|]. pose proof Hw as [Hc Hr]%andb_true_iff.
  exists c, (run0 ++ p). split; [reflexivity|]. split; [now apply alpha_not_blank|].
  rewrite <- app_assoc, (next_tok_alpha c _ Hc). unfold lex_word.
  rewrite (span_app _ run0 (p ++ X) Hr)
    by now rewrite (eol_body_hd is_alnum _ p X Hst eq_refl eq_refl Ha).
  rewrite Kr, Kd, (eol_body_hd is_dollar _ p X Hst eq_refl eq_refl Hd). cbn [negb andb].
  now rewrite (scan_data_app _ _ _ Hp Hst).
Qed.

Lemma spec_rem kw b X : relexes (TRem kw b) X.
Proof.
  unfold relexes. cbn [tok_ok].
  intros [[[[Hw Kr]%andb_true_iff Hb]%andb_true_iff Hd%negb_true_iff]%andb_true_iff
          Ha%negb_true_iff]%andb_true_iff Hst.
  destruct kw as [|c run0]; [discriminate|]. pose proof Hw as [Hc Hr]%andb_true_iff.
  exists c, (run0 ++ b). split; [reflexivity|]. split; [now apply alpha_not_blank|].
  rewrite <- app_assoc, (next_tok_alpha c _ Hc). unfold lex_word.
  rewrite (span_app _ run0 (b ++ X) Hr)
    by now rewrite (eol_body_hd is_alnum _ b X Hst eq_refl eq_refl Ha).
  rewrite Kr, (eol_body_hd is_dollar _ b X Hst eq_refl eq_refl Hd). cbn [negb andb].
  cbn [stops] in Hst. rewrite eol_hd in Hst. now rewrite (span_app _ _ _ Hb Hst).
Qed.

Lemma spec_op o X : relexes (TOp o) X.
Proof.
  unfold relexes. cbn [tok_ok]. intros Hok Hst.
  destruct o as [|c [|d [|e o]]]; try discriminate.
  - pose proof Hok as Hop. unfold op_start in Hop.
    apply andb_true_iff in Hop as [[[[[[B%negb_true_iff N10%negb_true_iff]%andb_true_iff
      N34%negb_true_iff]%andb_true_iff N39%negb_true_iff]%andb_true_iff
      N58%negb_true_iff]%andb_true_iff Nd%negb_true_iff]%andb_true_iff Na%negb_true_iff].
    exists c, []. split; [reflexivity|]. split; [exact B|]. cbn [app].
    destruct (is_relch c) eqn:Hr.
    + rewrite (proj2 (next_tok_rel c X Hr)). unfold lex_rel. destruct X as [|d X]; [reflexivity|].
      cbn [stops hd_error] in Hst. rewrite Hr in Hst. unfold onhd, ohd in Hst.
      apply negb_true_iff in Hst. now rewrite Hst.
    + rewrite (stops_op c X Hr) in Hst.
      apply andb_true_iff in Hst as [H46%negb_true_iff H38%negb_true_iff].
      unfold next_tok. now rewrite N10, N34, N39, N58, Nd, Na, Hr, H46, H38.
  - apply andb_true_iff in Hok as [[Hc Hd]%andb_true_iff Hne].
    destruct (next_tok_rel c (d :: X) Hc) as [Hb Hn].
    exists c, [d]. split; [reflexivity|]. split; [exact Hb|].
    cbn [app]. rewrite Hn. unfold lex_rel. now rewrite Hd, Hne.
Qed.

Theorem next_tok_spec t X : relexes t X.
Proof.
  destruct t; intros Hok Hst.
  - now apply spec_word.
  - now apply spec_num.
  - now apply spec_hex.
  - now apply spec_str.
  - now apply spec_op.
  - exists 58, []. repeat split.
  - now apply spec_data.
  - now apply spec_rem.
  - exists 39, body. cbn [tok_ok stops] in *. rewrite eol_hd in Hst.
    repeat split. change (next_tok 39 ?s) with (let (b, r) := span not_nl s in (TApos b, r)).
    now rewrite (span_app _ _ _ Hok Hst).
  - exists 10, []. repeat split.
Qed.

Lemma text_first_char t :
  tok_ok t = true ->
  exists c u, text t = c :: u /\
    ((c =? 10) = true -> t = TNewline) /\ ((c =? 58) = true -> t = TColon).
Proof.
  destruct t as [[|c r] ?|[|c r] ? ?|? ?|? [|]|[|c [|d [|e ?]]]| |[|c r] ?|[|c r] ?|?|];
    cbn [tok_ok text app]; intro H; try discriminate H;
    (eexists _, _; split; [reflexivity|]);
    split; intro E; try discriminate E; try reflexivity;
    apply Z.eqb_eq in E as ->; cbn in H; discriminate H.
Qed.
