(* Stack discipline of expression code: executing cg e (Models/ExprCodegen.v)
   with Cpu.exec never touches the operand stack below its start, for every
   pure expression e (well typed or not) whose PLit literals are numeric cells
   (lits_numeric: for any other cell push_lit generates no code) and every
   machine state. *)
From Coq Require Import ZArith List Bool.
From QV Require Import Cell Machine Cpu SemBase ExprCodegen.
Import ListNotations.
Open Scope Z_scope.

Definition suffix {A} (s l : list A) : Prop := exists p, l = p ++ s.

Lemma suffix_refl {A} (s : list A) : suffix s s.
Proof. exists []. reflexivity. Qed.
Lemma suffix_cons {A} (s l : list A) a : suffix s l -> suffix s (a :: l).
Proof. intros [p ->]. exists (a :: p). reflexivity. Qed.
Lemma suffix_trans {A} (a b c : list A) : suffix a b -> suffix b c -> suffix a c.
Proof. intros [p ->] [r ->]. exists (r ++ p). now rewrite app_assoc. Qed.

Definition post (P : list cell -> Prop) (s : list cell) (o : out unit) : Prop :=
  match o with
  | R _ st' => P (stack st')
  | T _ _ st' | ZD st' | X _ st' | NI st' => suffix s (stack st')
  end.

Definition one_on (s : list cell) : list cell -> Prop := fun l => exists v, l = v :: s.

Lemma post_weaken P s s' o : post P s' o -> suffix s s' -> post P s o.
Proof. destruct o; simpl; eauto using suffix_trans. Qed.

Lemma post_impl (P Q : list cell -> Prop) s o : post P s o -> (forall l, P l -> Q l) -> post Q s o.
Proof. destruct o; simpl; auto. Qed.

Lemma exec_list_app m a b st :
  exec_list m (a ++ b) st = bind (exec_list m a) (fun _ => exec_list m b) st.
Proof.
  unfold bind.
  revert st; induction a as [|i a IH]; intro st; simpl.
  - reflexivity.
  - unfold bind. destruct (exec m i st); try reflexivity. apply IH.
Qed.

Lemma exec_list_one m i st : exec_list m [i] st = exec m i st.
Proof. simpl. unfold bind, ret. destruct (exec m i st) as [[] ?| | | |]; reflexivity. Qed.

Definition after A := A -> list cell -> Prop.

(* post for a computation of the machine monad that returns something: started
   on the operand stack l, c returns some a and a stack that satisfy Q, or fails
   above s.  The bodies of the instructions are walked with the rules below,
   one per construct, and no state is ever taken apart. *)
Definition sp {A} (s : list cell) (c : M A) (Q : after A) (l : list cell) : Prop :=
  forall st, stack st = l ->
  match c st with
  | R a st' => Q a (stack st')
  | T _ _ st' | ZD st' | X _ st' | NI st' => suffix s (stack st')
  end.

Lemma sp_ret {A} s (a : A) (Q : after A) l : Q a l -> sp s (ret a) Q l.
Proof. intros H st <-. exact H. Qed.

Lemma sp_bind {A B} s (c : M A) (f : A -> M B) (Q : after B) l :
  sp s c (fun a => sp s (f a) Q) l -> sp s (bind c f) Q l.
Proof.
  intros H st E. specialize (H st E). unfold bind.
  destruct (c st); auto. exact (H _ eq_refl).
Qed.

Lemma sp_pop s (Q : after cell) c r : Q c r -> sp s pop Q (c :: r).
Proof. intros H st E. unfold pop. rewrite E. exact H. Qed.

Lemma sp_push_cell s c (Q : after unit) : Q tt (c :: s) -> sp s (push_cell c) Q s.
Proof. intros H st <-. exact H. Qed.

Lemma sp_push s ty v (Q : after unit) :
  (forall c, Q tt (c :: s)) -> sp s (push ty v) Q s.
Proof.
  (* every branch of mk_cell returns a cell or fails, the state as it is *)
  intro H. apply sp_bind. unfold mk_cell.
  repeat match goal with |- sp _ (match ?x with _ => _ end) _ _ => destruct x end;
    first [apply sp_ret, sp_push_cell, H | intros ? <-; apply suffix_refl].
Qed.

(* IRead looks the frame and the cell up in the state and stores the default
   in an unset cell: the heap changes, the stack does not *)
Lemma sp_ask {A} s (f : st -> option A) k (Q : after A) :
  (forall a, Q a s) -> sp s (fun st => match f st with Some a => R a st | None => X k st end) Q s.
Proof. intros H st <-. destruct (f st); [apply H | apply suffix_refl]. Qed.

Lemma sp_set_heap s (f : st -> option (list seg)) k (Q : after unit) :
  Q tt s -> sp s (fun st => match f st with Some h => R tt (set_heap st h) | None => X k st end) Q s.
Proof. intros H st <-. destruct (f st); [exact H | apply suffix_refl]. Qed.

(* what no rule above the last one fits is a trap, a crash or
   ZeroDivisionError, raised on the stack as it is *)
Ltac sp_step :=
  cbv beta;
  lazymatch goal with
  | |- sp _ (bind _ _) _ _ => apply sp_bind
  | |- sp _ pop _ _ => apply sp_pop
  | |- sp _ (ret _) _ _ => apply sp_ret
  | |- sp _ (push _ _) _ _ => apply sp_push; intro
  | |- sp _ (push_cell _) _ _ => apply sp_push_cell
  | |- sp _ (fun st => match _ with Some _ => R _ st | None => _ end) _ _ => apply sp_ask; intro
  | |- sp _ (fun _ => match _ with Some _ => R tt (set_heap _ _) | None => _ end) _ _ => apply sp_set_heap
  | |- sp _ (match ?x with _ => _ end) _ _ => destruct x
  | |- sp _ _ _ _ => intros ? <-; apply suffix_refl
  | |- one_on _ _ => eexists; reflexivity
  end.

(* the preludes several instructions share, walked once *)
Lemma sp_bitwise s op b a : sp s (bitwise op) (fun _ => one_on s) (b :: a :: s).
Proof. unfold bitwise, type_mismatch. repeat sp_step. Qed.

Lemma sp_arith_prelude s (Q : after (cell * cell)) b a :
  Q (a, b) s -> sp s arith_prelude Q (b :: a :: s).
Proof. intro H. unfold arith_prelude, type_mismatch. repeat sp_step. exact H. Qed.

Ltac sp_instr :=
  lazymatch goal with
  | |- sp _ (bitwise _) _ _ => apply sp_bitwise
  | |- sp _ arith_prelude _ _ => apply sp_arith_prelude
  | _ => sp_step
  end.

Lemma sp_exec m i s P l st :
  sp s (exec m i) (fun _ => P) l -> stack st = l -> post P s (exec_list m [i] st).
Proof. intros H E. rewrite exec_list_one. specialize (H st E). destruct (exec m i st); exact H. Qed.

Definition takes (n : nat) m (c : list instr) : Prop :=
  forall p s st, length p = n -> stack st = p ++ s -> post (one_on s) s (exec_list m c st).

Definition operands (i : instr) : option nat :=
  match i with
  | IPushI _ | IPushL _ | IPushS _ | IPushD _ | IPushC _ _ | IPushStr _ | IRead true _ _ => Some 0%nat
  | INeg | INot | IConv _ _ | IEq | INe | ILt | IGt | ILe | IGe => Some 1%nat
  | IAdd | ISub | IMul | IDiv | IIdiv | IMod | IExp | ICmp | IAnd | IOr | IXor | IEqv | IImp => Some 2%nat
  | _ => None
  end.

Lemma instr_takes m i n : operands i = Some n -> takes n m [i].
Proof.
  intros Hi p s st Hp. apply sp_exec.
  destruct i; try discriminate Hi; try destruct local_; try discriminate Hi; injection Hi as <-.
  all: destruct p as [|b [|a [|]]]; try discriminate Hp; clear Hp; cbn [app].
  all: unfold exec, exp_tail, exp_tail_ref, read_generic, push_opt, pop_int, pop_ty,
         repush, write_var, read_var, seg_set, get_seg, scope_seg, cur_frame, type_mismatch.
  all: repeat sp_instr.
Qed.

Lemma seq_post m a b st (P Q : list cell -> Prop) s :
  post P s (exec_list m a st) ->
  (forall st1, P (stack st1) -> post Q s (exec_list m b st1)) ->
  post Q s (exec_list m (a ++ b) st).
Proof.
  intros Ha Hb. rewrite exec_list_app. unfold bind.
  destruct (exec_list m a st); simpl in *; auto.
Qed.

Lemma takes_nil m : takes 1 m [].
Proof. intros [|v [|]] s st Hp E; try discriminate. exists v. exact E. Qed.

Lemma takes_app n m a b : takes n m a -> takes 1 m b -> takes n m (a ++ b).
Proof.
  intros Ha Hb p s st Hp E. eapply seq_post; [exact (Ha p s st Hp E)|].
  intros st1 [v E1]. exact (Hb [v] s st1 eq_refl E1).
Qed.

(* b runs above the cell a has pushed *)
Lemma takes_join m a b c : takes 0 m a -> takes 0 m b -> takes 2 m c -> takes 0 m (a ++ b ++ c).
Proof.
  intros Ha Hb Hc p s st Hp E. eapply seq_post; [exact (Ha p s st Hp E)|].
  intros st1 [v1 E1]. eapply seq_post.
  { eapply post_weaken; [exact (Hb [] _ st1 eq_refl eq_refl)|]. rewrite E1. apply suffix_cons, suffix_refl. }
  intros st2 [v2 E2]. rewrite E1 in E2. exact (Hc [v2; v1] s st2 eq_refl E2).
Qed.

Lemma conv_code_takes m a b : takes 1 m (conv_code a b).
Proof.
  unfold conv_code. destruct (vty_eqb a b); [apply takes_nil | now apply instr_takes].
Qed.

Lemma op_instrs_takes m o : takes 2 m (op_instrs o).
Proof.
  destruct o; cbn [op_instrs]; try (now apply instr_takes);
    apply (takes_app 2 m [ICmp] [_]); now apply instr_takes.
Qed.

Fixpoint lits_numeric (e : pexpr) : bool :=
  match e with
  | PLit c => is_numeric c
  | PStrLit _ _ | PVar _ _ => true
  | PUn _ a | PPar a => lits_numeric a
  | PBin _ l r => lits_numeric l && lits_numeric r
  end.

Lemma push_lit_takes m c : is_numeric c = true -> takes 0 m (push_lit c).
Proof.
  intro Hn. unfold push_lit.
  destruct (small_const c); [|destruct c; try discriminate]; now apply instr_takes.
Qed.

Theorem cg_takes m e : lits_numeric e = true -> takes 0 m (cg e).
Proof.
  induction e as [c | idx s0 | i t | o a IH | o l IHl r IHr | a IH]; cbn [cg lits_numeric]; intro Hl.
  - apply push_lit_takes, Hl.
  - now apply instr_takes.
  - now apply instr_takes.
  - apply takes_app; [exact (IH Hl)|].
    destruct o; [now apply instr_takes | | apply takes_nil].
    destruct (q_ty a); [apply takes_app; [apply conv_code_takes|]|]; now apply instr_takes.
  - apply andb_true_iff in Hl as [Hl1 Hl2].
    (* operand, conversion, operand, conversion, operator *)
    assert (Hgen : forall c1 c2, takes 1 m c1 -> takes 1 m c2 ->
                                 takes 0 m (cg l ++ c1 ++ cg r ++ c2 ++ op_instrs o)).
    { intros c1 c2 H1 H2. rewrite (app_assoc (cg l)), (app_assoc (cg r)).
      apply takes_join; [apply takes_app; auto.. | apply op_instrs_takes]. }
    destruct (q_ty l) as [lt|]; [destruct (q_ty r) as [rt|]; [destruct (q_ty (PBin o l r)) as [nt|]|]|].
    2-4: apply (Hgen [] []); apply takes_nil.
    apply Hgen; apply conv_code_takes.
  - exact (IH Hl).
Qed.
