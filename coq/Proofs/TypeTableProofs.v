(* The generated operator-typing table of the code (Gen/TypeTable.v) satisfies the
   declarative rule (Models/TypeRules.v).  Finite domain: vm_compute sweeps. *)
From Coq Require Import ZArith List Bool Lia ZifyBool.
From QV Require Import TypeTable TypeRules.
Import ListNotations.
Open Scope Z_scope.

(* The binary table, unpacked once.  [binop_table] unpacks every number with
   eight divisions.  An independent re-check of the compiled files has no
   virtual machine and repeats every evaluation with the kernel's lazy
   reduction, where those divisions cost far more than the checks they feed.
   So the table is unpacked once, by the virtual machine, into the literal
   [binop_entries]; that the literal is the table is checked in the other
   direction, by packing each entry again, which needs multiplications only;
   the sweeps then run over the literal. *)

Definition digit (d : Z) : bool := (0 <=? d) && (d <? 10).

Lemma snoc_div q d : digit d = true -> (q * 10 + d) / 10 = q.
Proof. unfold digit. intros H. Z.div_mod_to_equations. lia. Qed.

Lemma snoc_mod q d : digit d = true -> (q * 10 + d) mod 10 = d.
Proof. unfold digit. intros H. Z.div_mod_to_equations. lia. Qed.

Definition packs_to (z : Z) (e : Z * Z * Z * Z * Z) : bool :=
  let '(op, a, b, ty, raised) := e in
  digit a && digit b && digit (ty + 1) && digit raised &&
  (z =? (((op * 10 + a) * 10 + b) * 10 + (ty + 1)) * 10 + raised).

Lemma packs_to_unpack z e : packs_to z e = true -> unpack_bin z = e.
Proof.
  destruct e as [[[[op a] b] ty] raised]. unfold packs_to.
  rewrite !andb_true_iff, Z.eqb_eq. intros [[[[Ha Hb] Ht] Hr] Hz]. subst z.
  unfold unpack_bin.
  (* every quotient of [unpack_bin] as repeated division by ten *)
  change 10000 with (10 * (10 * (10 * 10))).
  change 1000 with (10 * (10 * 10)).
  change 100 with (10 * 10).
  rewrite <- !Z.div_div by first [discriminate | reflexivity].
  rewrite !snoc_div, !snoc_mod by assumption.
  rewrite Z.add_simpl_r. reflexivity.
Qed.

Fixpoint unpacks (l : list Z) (t : list (Z * Z * Z * Z * Z)) : bool :=
  match l, t with
  | [], [] => true
  | z :: l', e :: t' => packs_to z e && unpacks l' t'
  | _, _ => false
  end.

Lemma unpacks_sound l : forall t, unpacks l t = true -> map unpack_bin l = t.
Proof.
  induction l as [|z l IH]; intros [|e t] H; try discriminate; [reflexivity|].
  simpl in H. apply andb_true_iff in H. destruct H as [Hz Hl].
  simpl. rewrite (packs_to_unpack z e Hz), (IH t Hl). reflexivity.
Qed.

Definition binop_entries : list (Z * Z * Z * Z * Z) := Eval vm_compute in binop_table.

Lemma binop_table_entries : binop_table = binop_entries.
Proof. apply unpacks_sound. vm_compute. reflexivity. Qed.

(* a single entry is looked up in the packed list, without unpacking the rest *)
Lemma binop_table_has z : existsb (Z.eqb z) binop_packed = true -> In (unpack_bin z) binop_table.
Proof.
  intros H. apply existsb_exists in H. destruct H as [y [Hy E]].
  apply Z.eqb_eq in E. subst y. apply in_map. exact Hy.
Qed.

Lemma bin_verdict_sweep : forallb bin_entry_verdict_ok binop_table = true.
Proof. rewrite binop_table_entries. vm_compute. reflexivity. Qed.

Lemma bin_exact_sweep :
  forallb (fun e => intdiv_float e || bin_entry_exact_ok e) binop_table = true.
Proof. rewrite binop_table_entries. vm_compute. reflexivity. Qed.

Lemma un_sweep : forallb un_entry_ok unop_table = true.
Proof. vm_compute. reflexivity. Qed.

Lemma coerce_sweep : forallb coerce_entry_ok coerce_table = true.
Proof. vm_compute. reflexivity. Qed.

(* no [vm_compute] here: it would write the normal form of these long lists
   into the proof *)
Lemma bin_keys_domain : bin_keys = bin_domain.
Proof. unfold bin_keys. rewrite binop_table_entries. reflexivity. Qed.

Lemma un_keys_domain : un_keys = un_domain.
Proof. vm_compute. reflexivity. Qed.

Lemma coerce_keys_domain : coerce_keys = coerce_domain.
Proof. vm_compute. reflexivity. Qed.

Lemma opt_eqb_eq x y : opt_eqb x y = true -> x = y.
Proof.
  destruct x as [a|], y as [b|]; simpl; try discriminate; try reflexivity.
  intros H. apply Z.eqb_eq in H. congruence.
Qed.

Lemma type_table_ok op a b ty raised :
  In (op, a, b, ty, raised) binop_table ->
  verdict_kind (effective ty raised) = verdict_kind (rule_bin op a b).
Proof.
  intros H. pose proof (proj1 (forallb_forall _ _) bin_verdict_sweep _ H) as S. simpl in S.
  destruct (verdict_kind (effective ty raised)), (verdict_kind (rule_bin op a b));
    try discriminate; [|reflexivity].
  apply eqb_prop in S. congruence.
Qed.

Lemma coercible_ok a b v :
  In (a, b, v) coerce_table -> (v = 1 <-> rule_coerce a b = true) /\ (v = 0 \/ v = 1).
Proof.
  intros H. pose proof (proj1 (forallb_forall _ _) coerce_sweep _ H) as S. simpl in S. lia.
Qed.

Lemma in_product {A B C} (f : A -> B -> C) a b la lb :
  In a la -> In b lb -> In (f a b) (flat_map (fun a => map (f a) lb) la).
Proof.
  intros Ha Hb. apply in_flat_map. exists a. split; [assumption | apply in_map; assumption].
Qed.

Lemma bin_table_total op a b :
  In op bin_ops -> In a kinds -> In b kinds ->
  exists ty raised, In (op, a, b, ty, raised) binop_table.
Proof.
  intros Ho Ha Hb.
  assert (Hd : In (op, a, b) bin_domain).
  { apply in_flat_map. exists op. split; [assumption|].
    exact (in_product (fun a b => (op, a, b)) _ _ _ _ Ha Hb). }
  rewrite <- bin_keys_domain in Hd. apply in_map_iff in Hd.
  destruct Hd as [[[[[op' a'] b'] ty] raised] [[= -> -> ->] Hin]]. eauto.
Qed.

Lemma un_table_total op a :
  In op un_ops -> In a kinds -> exists ty raised, In (op, a, ty, raised) unop_table.
Proof.
  intros Ho Ha. pose proof (in_product pair _ _ _ _ Ho Ha : In (op, a) un_domain) as Hd.
  rewrite <- un_keys_domain in Hd. apply in_map_iff in Hd.
  destruct Hd as [[[[op' a'] ty] raised] [[= -> ->] Hin]]. eauto.
Qed.

Lemma coerce_table_total a b :
  In a kinds -> In b kinds -> exists v, In (a, b, v) coerce_table.
Proof.
  intros Ha Hb. pose proof (in_product pair _ _ _ _ Ha Hb : In (a, b) coerce_domain) as Hd.
  rewrite <- coerce_keys_domain in Hd. apply in_map_iff in Hd.
  destruct Hd as [[[a' b'] v] [[= -> ->] Hin]]. eauto.
Qed.

Lemma rule_bin_none op a b :
  numeric a && numeric b = false -> is_string a && is_string b = false -> rule_bin op a b = None.
Proof.
  intros Hn Hs. unfold rule_bin. rewrite <- andb_assoc, Hn, Hs, andb_false_r.
  destruct (is_cmp op), (is_logical_bin op || (op =? OP_MOD) || (op =? OP_INTDIV)), (op =? OP_DIV);
    reflexivity.
Qed.

Lemma rule_bin_mixed op a b :
  (numeric a = true /\ is_string b = true) \/ (is_string a = true /\ numeric b = true) ->
  rule_bin op a b = None.
Proof. intros M. apply rule_bin_none; unfold numeric, is_string in *; lia. Qed.

Lemma rule_bin_record op a b : 6 <= a \/ 6 <= b -> rule_bin op a b = None.
Proof. intros M. apply rule_bin_none; unfold numeric, is_string in *; lia. Qed.

Lemma rule_none_rejected op a b ty raised :
  In (op, a, b, ty, raised) binop_table -> rule_bin op a b = None -> effective ty raised = None.
Proof.
  intros H R. pose proof (type_table_ok _ _ _ _ _ H) as V. rewrite R in V.
  destruct (effective ty raised); [discriminate | reflexivity].
Qed.

