(* Proofs about Models/Codec.v: operand codecs; what the decoder reads from the
   encoding of any instruction, and that its size is the one the generated table
   lists; whole code sections. *)
From Coq Require Import ZArith List Bool Lia ZifyBool.
From QV Require Import Sx Strs Fl Machine Cpu Instrs Codec InstrCheck Listing.
Import ListNotations.
Open Scope Z_scope.
#[local] Ltac Zify.zify_post_hook ::= Z.to_euclidean_division_equations.

Lemma len_app {A} (a b : list A) : len (a ++ b) = len a + len b.
Proof. unfold len. rewrite app_length. lia. Qed.
Lemma len_cons {A} (a : A) (b : list A) : len (a :: b) = 1 + len b.
Proof. unfold len. simpl length. lia. Qed.
Lemma len_nonneg {A} (l : list A) : 0 <= len l.
Proof. unfold len. lia. Qed.
Lemma to_nat_len {A} (l : list A) : Z.to_nat (len l) = length l.
Proof. apply Nat2Z.id. Qed.

(* the bytes are quotients and remainders of z: what is read back is z,
   whatever its size *)
Lemma u16_be16 z r : u16 (be16 z ++ r) = Some (z, r).
Proof. unfold be16, u16. simpl. do 2 f_equal. lia. Qed.

Lemma u32_be32 z r : u32 (be32 z ++ r) = Some (z, r).
Proof. unfold be32, be16, u32. simpl. do 2 f_equal. lia. Qed.

Lemma u64_be64 z r : u64 (be64 z ++ r) = Some (z, r).
Proof.
  unfold u64, be64. rewrite <- app_assoc, !u32_be32. do 2 f_equal.
  rewrite Z.mul_comm. symmetry. apply Z_div_mod_eq_full.
Qed.

(* two's complement in 2 * h values: the writer's wrap-around undone by the reader's *)
Lemma signed_wrap h z : - h <= z < h ->
  let v := if z <? 0 then z + 2 * h else z in (if v >=? h then v - 2 * h else v) = z.
Proof. intros H. cbv zeta. destruct (z <? 0) eqn:E; destruct (_ >=? h) eqn:G; lia. Qed.

Lemma i16_be16 z r : i16 (be16 z ++ r) = Some (if z >=? 32768 then z - 65536 else z, r).
Proof. unfold i16. rewrite u16_be16. reflexivity. Qed.

Definition packs {A} (e : option (list Z)) (rd : list Z -> option (A * list Z)) (n : Z) (a : A) : Prop :=
  forall b, e = Some b -> len b = n /\ forall r, rd (b ++ r) = Some (a, r).

Lemma ranged_packs {A} (rd : list Z -> option (A * list Z)) n a lo z hi b :
  (lo <= z <= hi -> len b = n /\ forall r, rd (b ++ r) = Some (a, r)) ->
  packs (if in_range lo z hi then Some b else None) rd n a.
Proof.
  unfold in_range. intros F b'. destruct (_ && _) eqn:E; [|discriminate].
  intros [= <-]. apply F. lia.
Qed.

Lemma enc_u8_packs z : packs (enc_u8 z) u8 1 z.
Proof. apply ranged_packs. split; reflexivity. Qed.

Lemma enc_u16_packs z : packs (enc_u16 z) u16 2 z.
Proof. apply ranged_packs. split; [reflexivity | intro; apply u16_be16]. Qed.

Lemma enc_i16_packs z : packs (enc_i16 z) i16 2 z.
Proof.
  apply ranged_packs. intros R. split; [reflexivity | intro r].
  rewrite i16_be16. do 2 f_equal. apply (signed_wrap 32768). lia.
Qed.

Lemma enc_u32_packs z : packs (enc_u32 z) u32 4 z.
Proof. apply ranged_packs. split; [reflexivity | intro; apply u32_be32]. Qed.

Lemma enc_i32_packs z : packs (enc_i32 z) i32 4 z.
Proof.
  apply ranged_packs. intros R. split; [reflexivity | intro r].
  unfold i32. rewrite u32_be32. do 2 f_equal. apply (signed_wrap 2147483648). lia.
Qed.

Lemma enc_u64_packs z : packs (enc_u64 z) u64 8 z.
Proof. apply ranged_packs. split; [reflexivity | intro; apply u64_be64]. Qed.

(* D30: the literal index is written unsigned and read signed *)
Lemma pushstr_packs z : packs (enc_u16 z) i16 2 (if z >=? 32768 then z - 65536 else z).
Proof. apply ranged_packs. split; [reflexivity | intro; apply i16_be16]. Qed.

Create HintDb packs.
#[local] Hint Resolve enc_u8_packs enc_u16_packs enc_i16_packs enc_u32_packs enc_i32_packs
  enc_u64_packs pushstr_packs : packs.

Lemma cat2_inv a b bs : cat2 a b = Some bs -> exists x y, a = Some x /\ b = Some y /\ bs = x ++ y.
Proof. unfold cat2. destruct a, b; try discriminate. intros [= <-]. eauto. Qed.

Definition reads_as (bs : list Z) (i : instr) : Prop :=
  (forall rest, decode (bs ++ rest) = DOk i (len bs)) /\ table_size (instr_name i) = Some (len bs).

Lemma reads_op0 op i bs :
  op0 op = Some bs -> (forall r, decode (op :: r) = d0 i) -> table_size (instr_name i) = Some 1 ->
  reads_as bs i.
Proof. intros [= <-] D T. split; [intro; apply D | exact T]. Qed.

Lemma reads_op1 {A} rd n (k : A -> instr) op e a bs :
  op1 op e = Some bs -> packs e rd n a -> (forall r, decode (op :: r) = d1 rd n r k) ->
  table_size (instr_name (k a)) = Some (1 + n) -> reads_as bs (k a).
Proof.
  unfold op1, cat2. intros H P D T. destruct e as [x|]; [|discriminate]. injection H as <-.
  destruct (P x eq_refl) as (L & R). unfold reads_as. simpl app. rewrite len_cons, L.
  split; [intro rest | exact T]. rewrite D. unfold d1. rewrite R. reflexivity.
Qed.

Lemma reads_op2 {A B} rd1 rd2 n1 n2 (k : A -> B -> instr) op e1 e2 a b bs :
  op2 op e1 e2 = Some bs -> packs e1 rd1 n1 a -> packs e2 rd2 n2 b ->
  (forall r, decode (op :: r) = d2 rd1 rd2 (n1 + n2) r k) ->
  table_size (instr_name (k a b)) = Some (1 + (n1 + n2)) -> reads_as bs (k a b).
Proof.
  unfold op2, cat2. intros H P1 P2 D T. destruct e1 as [x|], e2 as [y|]; try discriminate.
  injection H as <-. destruct (P1 x eq_refl) as (L1 & R1), (P2 y eq_refl) as (L2 & R2).
  unfold reads_as. simpl app. rewrite len_cons, len_app, L1, L2.
  split; [intro rest | exact T]. rewrite D. unfold d2. rewrite <- app_assoc, R1, R2. reflexivity.
Qed.

Lemma reads_op3 {A B C} rd1 rd2 rd3 n1 n2 n3 (k : A -> B -> C -> instr) op e1 e2 e3 a b c bs :
  op3 op e1 e2 e3 = Some bs -> packs e1 rd1 n1 a -> packs e2 rd2 n2 b -> packs e3 rd3 n3 c ->
  (forall r, decode (op :: r) = d3 rd1 rd2 rd3 (n1 + (n2 + n3)) r k) ->
  table_size (instr_name (k a b c)) = Some (1 + (n1 + (n2 + n3))) -> reads_as bs (k a b c).
Proof.
  unfold op3, cat2. intros H P1 P2 P3 D T.
  destruct e1 as [x|], e2 as [y|], e3 as [z|]; try discriminate. injection H as <-.
  destruct (P1 x eq_refl) as (L1 & R1), (P2 y eq_refl) as (L2 & R2), (P3 z eq_refl) as (L3 & R3).
  unfold reads_as. simpl app. rewrite len_cons, !len_app, L1, L2, L3.
  split; [intro rest | exact T].
  rewrite D. unfold d3. rewrite <- !app_assoc, R1, R2, R3. reflexivity.
Qed.

Lemma in_range_In lo z hi : in_range lo z hi = true -> In z (zrange (Z.to_nat (hi + 1 - lo)) lo).
Proof.
  unfold in_range. intros H.
  assert (forall n from, from <= z < from + Z.of_nat n -> In z (zrange n from)) as G.
  { induction n as [|n IH]; intros from R; [lia|]. simpl.
    destruct (Z.eq_dec from z); [left; assumption | right; apply IH; lia]. }
  apply G. lia.
Qed.

(* one goal for each member of the list that [E : In _ [...]] speaks of *)
Ltac each E := simpl in E; repeat destruct E as [<- | E]; [.. | destruct E].

Lemma conv_reads s d o : conv_opcode s d = Some o -> reads_as [o] (IConv s d).
Proof.
  unfold conv_opcode. destruct (_ && _) eqn:E; [|discriminate]. intros [= <-].
  apply andb_prop in E as (E & N). apply andb_prop in E as (Es & Ed).
  apply in_range_In in Es, Ed. each Es; each Ed; try discriminate N; split; vm_compute; reflexivity.
Qed.

Lemma deref_reads ty o : deref_opcode ty = Some o -> reads_as [o] (IDeref ty).
Proof.
  unfold deref_opcode. destruct (ty =? 1) eqn:E1.
  - intros [= <-]. apply Z.eqb_eq in E1 as ->. split; reflexivity.
  - destruct (in_range 2 ty 5) eqn:E; [|discriminate]. intros [= <-].
    apply in_range_In in E. each E; split; vm_compute; reflexivity.
Qed.

Lemma pushc_reads ty c :
  in_range 1 ty 4 && in_range (-2) c 2 = true ->
  reads_as [44 + (c + 2) * 4 + (ty - 1)] (IPushC ty c).
Proof.
  intros E. apply andb_prop in E as (Et & Ec). apply in_range_In in Et, Ec.
  each Et; each Ec; split; vm_compute; reflexivity.
Qed.

Lemma ty_slot_cases ty k :
  ty_slot ty = Some k -> In (ty, k) [(1, 0); (2, 1); (3, 2); (4, 3); (5, 4); (7, 5)].
Proof.
  unfold ty_slot. destruct (in_range 1 ty 5) eqn:E.
  - intros [= <-]. apply in_range_In in E. each E; simpl; auto 6.
  - destruct (ty =? 7) eqn:E7; [|discriminate]. intros [= <-].
    apply Z.eqb_eq in E7 as ->. simpl; auto 7.
Qed.

Lemma ty_slot_reads (l : bool) ty k :
  ty_slot ty = Some k ->
  (forall r, decode ((if l then 72 else 66) + k :: r) = d1 u16 2 r (IRead l ty)) /\
  (forall r, decode ((if l then 84 else 78) + k :: r) = d2 u16 u16 4 r (IReadidx l ty)) /\
  (forall i, table_size (instr_name (IRead l ty i)) = Some 3) /\
  (forall v i, table_size (instr_name (IReadidx l ty v i)) = Some 5).
Proof.
  intros H. apply ty_slot_cases in H. simpl in H.
  destruct l; repeat destruct H as [[= <- <-] | H]; try destruct H.
  all: repeat split; vm_compute; reflexivity.
Qed.

(* the instruction as the machine reads it back: all of it, but for the sign of
   a literal index *)
Definition read_back (i : instr) : instr :=
  match i with
  | IPushStr idx => IPushStr (if idx >=? 32768 then idx - 65536 else idx)
  | _ => i
  end.

(* [H] encodes a fixed opcode and its operands: each operand is packed by the
   encoder the decoder's reader belongs to; what the decoder does on the opcode
   and what the table lists for the mnemonic are computed.  The order matters:
   [reflexivity] gives up at once on an opcode that is not closed (IStore's
   [if local_ ...]), vm_compute on such a term does not come back *)
Ltac by_fields H :=
  match type of H with
  | op0 _ = _ => eapply reads_op0
  | op1 _ _ = _ => eapply reads_op1
  | op2 _ _ _ = _ => eapply reads_op2
  | op3 _ _ _ _ = _ => eapply reads_op3
  end; [exact H | auto with packs .. | reflexivity | vm_compute; reflexivity].

Lemma encode_plain_reads i bs : encode_plain i = Some bs -> reads_as bs (read_back i).
Proof.
  intros H. destruct i; cbn [encode_plain read_back] in *; try discriminate H; try by_fields H.
  - (* IConv *)
    destruct (conv_opcode src dst) as [o|] eqn:E; [|discriminate].
    injection H as <-. apply conv_reads, E.
  - (* IDeref *)
    destruct (deref_opcode ty) as [o|] eqn:E; [|discriminate].
    injection H as <-. apply deref_reads, E.
  - (* IPushC *)
    destruct (_ && _) eqn:E; [|discriminate].
    injection H as <-. apply pushc_reads, E.
  - (* IRead *)
    destruct (ty_slot ty) as [k|] eqn:E; [|discriminate].
    destruct (ty_slot_reads local_ _ _ E) as (D & _ & T & _).
    eapply reads_op1; [exact H | auto with packs | exact D | apply T].
  - (* IReadidx *)
    destruct (ty_slot ty) as [k|] eqn:E; [|discriminate].
    destruct (ty_slot_reads local_ _ _ E) as (_ & D & _ & T).
    eapply reads_op2; [exact H | auto with packs .. | exact D | apply T].
  - (* IStore *) destruct local_; by_fields H.
  - (* IStoreidx *) destruct local_; by_fields H.
Qed.

Lemma encode_w_reads w bs : encode_w w = Some bs -> reads_as bs (read_back (instr_of_w w)).
Proof.
  intros H. destruct w as [i | b | b]; simpl in H.
  - now apply encode_plain_reads.
  - apply (reads_op1 u32 4 (fun b => IPushS (fl_of_bits32 b)) _ _ _ _ H); auto with packs.
  - apply (reads_op1 u64 8 (fun b => IPushD (fl_of_bits b)) _ _ _ _ H); auto with packs.
Qed.

Lemma read_back_small w : pushstr_small w -> read_back (instr_of_w w) = instr_of_w w.
Proof.
  destruct w as [[] | |]; try reflexivity. simpl. intros G.
  replace (idx >=? 32768) with false by lia. reflexivity.
Qed.

Lemma decode_encode_w w bs rest :
  encode_w w = Some bs -> pushstr_small w ->
  decode (bs ++ rest) = DOk (instr_of_w w) (len bs).
Proof. intros H G. rewrite <- (read_back_small w G). apply (encode_w_reads w bs H). Qed.

Lemma read_back_name i : instr_name (read_back i) = instr_name i.
Proof. destruct i; reflexivity. Qed.

Lemma encode_w_size w bs :
  encode_w w = Some bs -> table_size (instr_name (instr_of_w w)) = Some (len bs).
Proof. intros H. rewrite <- read_back_name. apply (encode_w_reads w bs H). Qed.

Definition float_canon (i : instr) : Prop :=
  match i with
  | IPushS f => fl_of_bits32 (bits32_of_fl f) = f
  | IPushD f => fl_of_bits (bits_of_fl f) = f
  | _ => True
  end.

Lemma instr_of_w_of_instr i : float_canon i -> instr_of_w (w_of_instr i) = i.
Proof. destruct i; simpl; intros H; try reflexivity; now rewrite H. Qed.

Lemma encode_w_nonempty w bs : encode_w w = Some bs -> (0 < length bs)%nat.
Proof.
  intros H. destruct bs; [|simpl; lia]. discriminate (proj1 (encode_w_reads w [] H) []).
Qed.

Lemma skipn_len_app {A} (v b : list A) : skipn (Z.to_nat (len v)) (v ++ b) = b.
Proof.
  rewrite to_nat_len, skipn_app, skipn_all, Nat.sub_diag. reflexivity.
Qed.

Lemma firstn_len_app {A} (v b : list A) : firstn (Z.to_nat (len v)) (v ++ b) = v.
Proof.
  rewrite to_nat_len, firstn_app, firstn_all, Nat.sub_diag. apply app_nil_r.
Qed.

Lemma decode_code_from_step f off bs i n :
  decode bs = DOk i n ->
  decode_code_from (S f) off bs =
  match decode_code_from f (off + n) (skipn (Z.to_nat n) bs) with
  | COk r => COk ((off, i) :: r)
  | e => e
  end.
Proof.
  intros D. destruct bs; [discriminate D|]. cbn [decode_code_from]. rewrite D. reflexivity.
Qed.

(* one unit of fuel per byte is enough *)
Lemma decode_code_from_ok ws : forall off bs fuel,
  encode_code ws = Some bs -> Forall pushstr_small ws -> (length bs <= fuel)%nat ->
  decode_code_from fuel off bs = COk (with_offsets off ws).
Proof.
  induction ws as [|w r IH]; intros off bs fuel H F L.
  - simpl in H. injection H as <-. destruct fuel; reflexivity.
  - simpl in H. apply cat2_inv in H as (x & y & Hx & Hy & ->).
    inversion F as [|? ? Fw Fr]; subst.
    pose proof (encode_w_nonempty _ _ Hx). rewrite app_length in L.
    destruct fuel as [|f]; [lia|].
    rewrite (decode_code_from_step _ _ _ _ _ (decode_encode_w _ _ y Hx Fw)), skipn_len_app.
    rewrite (IH _ y f Hy Fr) by lia.
    simpl with_offsets. rewrite Hx. reflexivity.
Qed.
