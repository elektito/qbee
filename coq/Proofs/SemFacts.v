(* Facts about the reference semantics (Src/SemBase.v): results carry the
   static type of the typing rules. *)
From Coq Require Import ZArith List Bool.
From QV Require Import Sx Strs Fl Cell SemBase.
Import ListNotations.
Open Scope Z_scope.

Lemma mk_single_ty f c : mk_single f = POk c -> ty_of c = TS.
Proof.
  unfold mk_single. destruct f; try discriminate.
  destruct (to_single _) as [[| |]|]; intro H; inversion H; reflexivity.
Qed.

Lemma mk_double_ty q f c : mk_double q f = POk c -> ty_of c = TD.
Proof.
  unfold mk_double. destruct f; try (destruct (q Q_DBL_INF)); intro H; inversion H; reflexivity.
Qed.

Lemma mk_num_ty q t z c : mk_num q t z = POk c -> ty_of c = t.
Proof.
  destruct t; simpl; [unfold chk_int; destruct (in_int z) | unfold chk_long; destruct (in_long z)
                     | apply mk_single_ty | | ]; intro H; inversion H; reflexivity.
Qed.

Lemma mk_flt_ty q t f c : mk_flt q t f = POk c -> ty_of c = t.
Proof.
  destruct t; simpl; try discriminate; [apply mk_single_ty | apply mk_double_ty].
Qed.

Lemma conv_ty q t c c' : conv q t c = POk c' -> ty_of c' = t.
Proof.
  destruct t, c; simpl; try discriminate; try destruct (fround f); try discriminate.
  (* a range check, a rounding to SINGLE, or the value as it is *)
  all: try first [exact (mk_num_ty q TI _ _) | exact (mk_num_ty q TL _ _) | exact (mk_single_ty _ _)].
  all: intro H; inversion H; reflexivity.
Qed.

Lemma pbind_ok {A B} (m : pres A) (f : A -> pres B) r :
  pbind m f = POk r -> exists x, m = POk x /\ f x = POk r.
Proof. destruct m; try discriminate. eauto. Qed.

Lemma if_ok {A} (c : bool) e (m : pres A) r : (if c then PErr e else m) = POk r -> m = POk r.
Proof. destruct c; [discriminate | auto]. Qed.

Lemma rel_result o a b v :
  (pdo c <- cmp_same a b; POk (bool_cell (rel_holds o c))) = POk v -> ty_of v = TI.
Proof.
  intro H. apply pbind_ok in H as [c [_ H]]. inversion H. reflexivity.
Qed.

(* binop_sem and binop_ty look at the operand types only to tell strings from
   numbers, and both in the same way *)
Lemma ty_dispatch {A B} (R : A -> B -> Prop) ta tb ss sn nn ss' sn' nn' :
  R ss ss' -> R sn sn' -> R nn nn' ->
  R match ta, tb with TStr, TStr => ss | TStr, _ | _, TStr => sn | _, _ => nn end
    match ta, tb with TStr, TStr => ss' | TStr, _ | _, TStr => sn' | _, _ => nn' end.
Proof. destruct ta, tb; auto. Qed.

Theorem binop_ty_sound q o a b v (Hq : q Q_POW_INT = false) :
  binop_sem q o a b = POk v ->
  binop_ty o (ty_of a) (ty_of b) = Some (ty_of v).
Proof.
  apply (ty_dispatch (fun r t => r = POk v -> t = Some (ty_of v))).
  - (* two strings: + and the comparisons *)
    destruct o; cbn [is_rel]; try discriminate; intro H; f_equal; symmetry.
    2-7: exact (rel_result _ _ _ _ H).
    destruct a; try discriminate H; destruct b; try discriminate H.
    inversion H; reflexivity.
  - discriminate.
  - (* two numbers: behind the conversions of the operands every operator ends in
       mk_num, mk_flt or bool_cell at the type binop_ty gives *)
    destruct o; cbn [is_rel is_logic orb]; rewrite ?Hq; cbn [andb]; intro H;
      apply pbind_ok in H as [a' [_ H]]; apply pbind_ok in H as [b' [_ H]];
      repeat (apply pbind_ok in H as [? [_ H]]); try apply if_ok in H; f_equal; symmetry.
    (* + - * go by the representations of the converted operands *)
    1-3: destruct a', b'; try discriminate H.
    all: eauto using mk_num_ty, mk_flt_ty.
    all: inversion H; reflexivity.
Qed.
