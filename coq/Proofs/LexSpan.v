(* C14 - the scanning functions of Models/Lex.v ([span], [take_suffix],
   [scan_data]): what a result says about the input, and the input on which a
   given result comes out. *)
From Coq Require Import ZArith List Bool.
From QV Require Import Sx Strs Lex LexChars.
Import ListNotations.
Open Scope Z_scope.

Lemma hd_is_app p a X : a <> [] -> hd_is p (a ++ X) = hd_is p a.
Proof. destruct a; [congruence | reflexivity]. Qed.

Lemma hd_is_ohd p X : hd_is p X = ohd p (hd_error X).
Proof. destruct X; reflexivity. Qed.

Lemma onhd_hd p X : onhd p (hd_error X) = negb (hd_is p X).
Proof. unfold onhd. now rewrite hd_is_ohd. Qed.

Lemma span_inv p s a r :
  span p s = (a, r) -> s = a ++ r /\ forallb p a = true /\ negb (hd_is p r) = true.
Proof.
  revert a r; induction s as [|c s IH]; intros a r; cbn [span]; [now intros [= <- <-]|].
  destruct (p c) eqn:E; [|intros [= <- <-]; cbn; now rewrite E].
  destruct (span p s) as [a' b']. intros [= <- <-].
  destruct (IH a' b' eq_refl) as (-> & H2 & H3). cbn. now rewrite E, H2.
Qed.

Lemma span_app p a X :
  forallb p a = true -> negb (hd_is p X) = true -> span p (a ++ X) = (a, X).
Proof.
  intros Ha HX. induction a as [|c a IH]; cbn in *.
  - destruct X as [|x X]; [reflexivity|]. cbn in *. now destruct (p x).
  - apply andb_true_iff in Ha as [H1 H2]. now rewrite H1, (IH H2).
Qed.

Lemma hd_in_run (d q : Z -> bool) (run r : str) :
  (forall x, d x = true -> q x = true) -> negb (hd_is q r) = true ->
  hd_is d (run ++ r) = hd_is d run.
Proof.
  intros Hdq H. destruct run; [|reflexivity]. destruct r as [|x r]; [reflexivity|].
  cbn in *. destruct (d x) eqn:E; [|reflexivity]. now rewrite (Hdq x E) in H.
Qed.

Lemma span_all p a : forallb p a = true -> span p a = (a, []).
Proof. intro H. rewrite <- (app_nil_r a) at 1. now apply span_app. Qed.

Lemma scan_data_inv inq s p r :
  scan_data inq s = (p, r) ->
  s = p ++ r /\ data_ok inq p = true /\
  (at_eol (hd_error r) || (negb (data_inq inq p) && ohd is_colon (hd_error r))) = true.
Proof.
  revert inq p r; induction s as [|c s IH]; intros inq p r; cbn [scan_data];
    [now intros [= <- <-]|].
  destruct ((c =? 10) || (negb inq && (c =? 58))) eqn:E.
  - intros [= <- <-]. repeat split. exact E.
  - destruct (scan_data _ s) as [a b] eqn:Es. intros [= <- <-].
    destruct (IH _ _ _ Es) as (-> & H2 & H3). cbn. now rewrite E, H2.
Qed.

Lemma scan_data_app inq p X :
  data_ok inq p = true ->
  (at_eol (hd_error X) || (negb (data_inq inq p) && ohd is_colon (hd_error X))) = true ->
  scan_data inq (p ++ X) = (p, X).
Proof.
  revert inq; induction p as [|c p IH]; intros inq Hp HX; cbn in *.
  - destruct X as [|x X]; [reflexivity|]. cbn in *. unfold is_colon in HX. now rewrite HX.
  - apply andb_true_iff in Hp as [H1%negb_true_iff H2]. now rewrite H1, (IH _ H2 HX).
Qed.

(* a type character of class [p] after a run of [q] characters, the classes
   being disjoint: the shape of the end of words, numbers and &H literals *)
Lemma take_suffix_stop p q r0 suf r :
  take_suffix p r0 = (suf, r) -> negb (hd_is q r0) = true ->
  r0 = suf ++ r /\ suf_ok p suf = true /\
  (negb (is_nil suf) || (onhd p (hd_error r) && onhd q (hd_error r))) = true.
Proof.
  destruct r0 as [|c s]; cbn [take_suffix]; [now intros [= <- <-]|].
  destruct (p c) eqn:E; intros [= <- <-] Hq; cbn in *; [now rewrite E|].
  unfold onhd, ohd. now rewrite E, Hq.
Qed.

Lemma take_suffix_fit p q suf X :
  (forall c, p c = true -> q c = false) -> suf_ok p suf = true ->
  (negb (is_nil suf) || (onhd p (hd_error X) && onhd q (hd_error X))) = true ->
  take_suffix p (suf ++ X) = (suf, X) /\ negb (hd_is q (suf ++ X)) = true.
Proof.
  intros Hpq Hs Hst. destruct suf as [|x [|y suf]]; [| |discriminate]; cbn in *.
  - destruct X as [|x X]; [auto|]. unfold onhd, ohd in Hst. cbn in *.
    apply andb_true_iff in Hst as [H1%negb_true_iff H2]. now rewrite H1.
  - now rewrite Hs, (Hpq x Hs).
Qed.
