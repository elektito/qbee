(* C14 - the layout-preserving lexer: lossless, and its image is exactly the
   layouts accepted by [lay_ok] (so a text and its layout determine each other). *)
From Coq Require Import ZArith List Bool Lia.
From QV Require Import Sx Strs Lex LexChars LexSpan LexTok.
Import ListNotations.
Open Scope Z_scope.

(* [lay_ok] looks at the first character of the rest of the layout, the lexer
   at the first character of the rest of the text *)
Lemma hd_unlex l tail :
  lay_ok l (hd_error tail) = true -> hd_lay l (hd_error tail) = hd_error (unlex l tail).
Proof.
  destruct l as [|[ws t] l']; [reflexivity|]. cbn [lay_ok hd_lay unlex].
  intros [[[_ Hok]%andb_true_iff _]%andb_true_iff _]%andb_true_iff.
  destruct (text_first_char t Hok) as (c & u & -> & _). now destruct ws.
Qed.

Lemma lexl_relex l : forall tail fuel,
  lay_ok l (hd_error tail) = true -> forallb is_blank tail = true ->
  (length (unlex l tail) < fuel)%nat -> lexl fuel (unlex l tail) = (l, tail).
Proof.
  induction l as [|[ws t] l IH]; intros tail fuel Hok Ht Hf;
    (destruct fuel; [inversion Hf|]); cbn [lexl unlex] in *.
  - now rewrite (span_all _ _ Ht).
  - cbn [lay_ok] in Hok.
    apply andb_true_iff in Hok as [[[H1 H2]%andb_true_iff H3]%andb_true_iff H4].
    rewrite (hd_unlex l tail H4) in H3.
    destruct (next_tok_spec t (unlex l tail) H2 H3) as (c & u & Htx & Hb & Hn).
    rewrite Htx in *. cbn [app] in *.
    rewrite (span_app is_blank ws (c :: u ++ unlex l tail) H1) by (cbn [hd_is]; now rewrite Hb).
    rewrite Hn, IH; [reflexivity | exact H4 | exact Ht |].
    (* [lia] would go through every boolean hypothesis in sight *)
    rewrite app_length in Hf. cbn [length] in Hf. rewrite app_length in Hf. clear - Hf. lia.
Qed.

Lemma lexl_inv fuel : forall s l tail,
  (length s < fuel)%nat -> lexl fuel s = (l, tail) ->
  unlex l tail = s /\ lay_ok l (hd_error tail) = true /\ forallb is_blank tail = true.
Proof.
  induction fuel as [|fuel IH]; intros s l tail Hf; [inversion Hf|].
  cbn [lexl]. destruct (span is_blank s) as [ws r] eqn:E.
  apply span_inv in E as (-> & E2 & E3).
  destruct r as [|c r'].
  - intros [= <- <-]. rewrite app_nil_r. auto.
  - destruct (next_tok c r') as [t rest] eqn:En.
    destruct (lexl fuel rest) as [l' tail'] eqn:El. intros [= <- <-].
    cbn [hd_is] in E3. apply negb_true_iff in E3.
    destruct (next_tok_inv c r' t rest E3 En) as (Htx & Hok & Hst).
    destruct (text_first_char t Hok) as (c' & u & Hu & _).
    assert (Hlen : (length rest < fuel)%nat).
    { rewrite Hu in Htx. injection Htx as _ <-.
      rewrite !app_length in Hf. cbn [length] in Hf. rewrite app_length in Hf. clear - Hf. lia. }
    destruct (IH rest l' tail' Hlen El) as (I1 & I2 & I3).
    cbn [unlex lay_ok]. rewrite E2, Hok, I2, (hd_unlex l' tail' I2), I1, Hst, Htx. auto.
Qed.

Theorem lex_lay_ok s l tail :
  lex_layout s = (l, tail) ->
  unlex l tail = s /\ lay_ok l (hd_error tail) = true /\ forallb is_blank tail = true.
Proof. unfold lex_layout. intro E. apply lexl_inv in E; [exact E | lia]. Qed.

Theorem relex l tail :
  lay_ok l (hd_error tail) = true -> forallb is_blank tail = true ->
  lex_layout (unlex l tail) = (l, tail).
Proof. intros H1 H2. unfold lex_layout. apply lexl_relex; auto. Qed.

Lemma hd_lay_app l1 l2 nxt : hd_lay (l1 ++ l2) nxt = hd_lay l1 (hd_lay l2 nxt).
Proof. destruct l1 as [|[ws t] l1]; reflexivity. Qed.

Lemma lay_ok_app l1 l2 nxt :
  lay_ok (l1 ++ l2) nxt = lay_ok l1 (hd_lay l2 nxt) && lay_ok l2 nxt.
Proof.
  induction l1 as [|[ws t] l1 IH]; [reflexivity|].
  cbn [app lay_ok]. rewrite IH, hd_lay_app. now rewrite !andb_assoc.
Qed.

Lemma last_tok_snoc l ws t : last_tok (l ++ [(ws, t)]) = Some t.
Proof. unfold last_tok. now rewrite rev_unit. Qed.

(* only the last token of a layout looks at what follows it *)
Lemma lay_ok_next l oc oc' :
  (forall p, last_tok l = Some p -> stops p oc = true -> stops p oc' = true) ->
  lay_ok l oc = true -> lay_ok l oc' = true.
Proof.
  induction l as [|[ws t] l _] using rev_ind; [auto|].
  rewrite !lay_ok_app, last_tok_snoc. cbn [lay_ok hd_lay].
  intros Hm [H1 [[[H2 H3]%andb_true_iff H4]%andb_true_iff _]%andb_true_iff]%andb_true_iff.
  now rewrite H1, H2, H3, (Hm t eq_refl H4).
Qed.

(* [sep_ok l ws t] is [tail_ok l (ws ++ text t)] *)
Lemma tail_ok_lay l X oc :
  lay_ok l oc = true -> tail_ok l X = true -> lay_ok l (hd_error X) = true.
Proof.
  intros H Hs. apply (lay_ok_next l oc); [|exact H].
  intros p E _. unfold tail_ok in Hs. now rewrite E in Hs.
Qed.

Definition fits (l1 : list ltok) (ws : str) (t : token) : Prop :=
  lay_ok l1 (hd_error (ws ++ text t)) = true /\ forallb is_blank ws = true /\ tok_ok t = true.

Lemma lay_ok_mid l1 ws t l2 nxt :
  lay_ok (l1 ++ (ws, t) :: l2) nxt = true <->
  fits l1 ws t /\ stops t (hd_lay l2 nxt) = true /\ lay_ok l2 nxt = true.
Proof.
  rewrite lay_ok_app. cbn [lay_ok hd_lay]. unfold fits. rewrite !andb_true_iff. tauto.
Qed.
