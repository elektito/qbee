(* What the stack instructions (the domain of Verifier.eff) do to the control
   registers: pc moves only through jmp / jz, halted and irq are untouched. *)
From Coq Require Import ZArith List.
From QV Require Import Machine Cpu Verifier VerifierProofs.
Import ListNotations.
Open Scope Z_scope.

Definition ctl_post (i : instr) (s : st) (o : out unit) : Prop :=
  match o with
  | R _ s' =>
    match i with
    | IJmp t => pc s' = t
    | IJz t => pc s' = t \/ pc s' = pc s
    | _ => pc s' = pc s
    end /\ halted s' = halted s /\ irq s' = irq s
  | _ => True
  end.

Lemma eff_ctl m i s t' : eff i (tys (stack s)) = Some t' -> ctl_post i s (exec m i s).
Proof.
  intro H. pose proof (eff_exec m i _ (pc s) _ H s eq_refl eq_refl) as E. unfold ctl_post.
  destruct (exec m i s); auto.
  destruct E as (Er & _ & Ep). apply blank_stack_pc_fields in Er. intuition.
Qed.
