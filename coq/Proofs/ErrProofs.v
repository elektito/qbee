(* ON ERROR / RESUME (C10): do_trap, errhand, exec_errres (errres and errresn)
   and the statement lookup find_stmt; tick_exec, on which cfg_step (C03) and
   tick_total_on_typed_stack_instr (C07) rest as well. *)
From Coq Require Import ZArith List Bool Lia.
From QV Require Import Sx Strs Fl Cell Machine Cpu.
Import ListNotations.
Open Scope Z_scope.

Lemma trap_enters_handler m c kw s a :
  ttarget_ s = TAddr a -> handler_active s = false ->
  do_trap m c kw s = Next (set_handler_active (set_pc (set_last_trap s (Some c) kw) a) true).
Proof. intros Ht Ha. unfold do_trap. destruct s; cbn in *. subst. reflexivity. Qed.

Definition in_code (m : module) (s : st) : Prop :=
  irq s = false /\ 0 <= pc s < code_len m.

(* the state in which tick runs the instruction: prev_pc recorded, pc advanced *)
Definition pre_exec (s : st) (size : Z) : st :=
  set_pc (set_prev_pc s (pc s)) (pc (set_prev_pc s (pc s)) + size).

(* tick treats push$ apart; stated for any two branches, so that the case analysis over the
   instructions is made on a small term *)
Lemma not_push_str {A} (i : instr) (a : Z -> A) (b : A) :
  (forall idx, i <> IPushStr idx) -> match i with IPushStr idx => a idx | _ => b end = b.
Proof. intro Hn. destruct i; try reflexivity. now destruct (Hn idx). Qed.

(* tick on a decodable instruction in the code section: run it, then dispatch on how it ended
   (push$ is left out: tick checks its literal index first) *)
Lemma tick_exec m s i size :
  in_code m s ->
  decode (skipn (Z.to_nat (pc s)) (m_code m)) = DOk i size ->
  (forall idx, i <> IPushStr idx) ->
  tick m s = end_check m
    match exec m i (pre_exec s size) with
    | R _ s3 => Next s3
    | T c kw s3 => do_trap m c kw (set_trapped_addr s3 (prev_pc s3))
    | ZD s3 => do_trap m T_DIVISION_BY_ZERO true (set_trapped_addr s3 (prev_pc s3))
    | X k s3 => Crash k s3
    | NI s3 => NeedInput s3
    end.
Proof.
  intros [Hi [Hlo Hhi]] Hd Hn. unfold tick. rewrite Hi.
  replace ((pc s <? 0) || (pc s >=? code_len m)) with false by lia.
  rewrite Hd. cbv beta iota zeta. apply not_push_str, Hn.
Qed.

Definition contains (r : Z * Z) (addr : Z) : Prop := fst r <= addr < snd r.
Definition size_of (r : Z * Z) : Z := snd r - fst r.

(* the invariant of the fold in find_stmt over the records seen so far *)
Definition best_of (seen : Z * Z -> Prop) (addr : Z) (best : option (Z * Z)) : Prop :=
  match best with
  | Some r => contains r addr /\ forall r', seen r' -> contains r' addr -> size_of r <= size_of r'
  | None => forall r', seen r' -> ~ contains r' addr
  end.

Lemma best_of_step seen addr best a b :
  best_of seen addr best ->
  best_of (fun r => seen r \/ r = (a, b)) addr
    (if (a <=? addr) && (addr <? b) then
       match best with
       | Some (a', b') => if b - a <? b' - a' then Some (a, b) else best
       | None => Some (a, b)
       end
     else best).
Proof.
  unfold best_of, contains, size_of. intro Hb.
  destruct ((a <=? addr) && (addr <? b)) eqn:Hc; destruct best as [[a' b']|];
    try destruct (b - a <? b' - a') eqn:Hlt; cbn [fst snd] in *.
  all: try (split; [lia|]); intros r' [Hs | ->]; cbn [fst snd]; try lia.
  all: try (destruct Hb as [_ Hb]); specialize (Hb r' Hs); lia.
Qed.

Lemma find_stmt_fold addr stmts : forall seen best,
  best_of seen addr best ->
  best_of (fun r => seen r \/ In r stmts) addr
    (fold_left (fun best '(a, b) =>
                  if (a <=? addr) && (addr <? b) then
                    match best with
                    | Some (a', b') => if b - a <? b' - a' then Some (a, b) else best
                    | None => Some (a, b)
                    end
                  else best) stmts best).
Proof.
  induction stmts as [|[a b] stmts IH]; intros seen best Hb; cbn [fold_left].
  - destruct best; cbn in *; intuition eauto.
  - specialize (IH _ _ (best_of_step seen addr best a b Hb)).
    destruct (fold_left _ stmts _); cbn in *; intuition (subst; eauto).
Qed.

Lemma find_stmt_innermost stmts addr :
  match find_stmt stmts addr with
  | Some r => contains r addr /\ forall r', In r' stmts -> contains r' addr -> size_of r <= size_of r'
  | None => forall r', In r' stmts -> ~ contains r' addr
  end.
Proof.
  unfold find_stmt.
  pose proof (find_stmt_fold addr stmts (fun _ => False) None (fun _ F => match F with end)) as H.
  destruct (fold_left _ stmts None); cbn in H.
  - destruct H as [A B]. split; [exact A|]. intros r' Hin. apply B. now right.
  - intros r' Hin. apply H. now right.
Qed.

Lemma resume_sets_pc m stmts s a b next :
  m_stmts m = Some stmts -> trapped_addr s <> 0 ->
  find_stmt stmts (trapped_addr s) = Some (a, b) ->
  exec_errres m next s =
  R tt (set_handler_active (set_pc s (if next then b else a)) false).
Proof.
  intros Hm Hta Hf. unfold exec_errres. rewrite Hm. unfold bind, get, find_stmt_at.
  replace (trapped_addr s =? 0) with false by lia.
  unfold ret. rewrite Hf. reflexivity.
Qed.

(* ON ERROR RESUME NEXT: the failing statement is skipped without entering a handler *)
Lemma resume_next_mode m stmts c kw s a b :
  ttarget_ s = TNext -> handler_active s = false ->
  m_stmts m = Some stmts -> trapped_addr s <> 0 ->
  find_stmt stmts (trapped_addr s) = Some (a, b) ->
  do_trap m c kw s = Next (set_handler_active (set_pc (set_last_trap s (Some c) kw) b) false).
Proof.
  intros Ht Ha Hm Hta Hf. unfold do_trap.
  assert (E : exec_errres m true (set_last_trap s (Some c) kw) =
              R tt (set_handler_active (set_pc (set_last_trap s (Some c) kw) b) false)).
  { apply (resume_sets_pc m stmts (set_last_trap s (Some c) kw) a b true); destruct s; cbn in *; assumption. }
  destruct s; cbn in *. subst. cbn in E. rewrite E. reflexivity.
Qed.

Lemma errhand_arms m s t :
  handler_active s = false -> t <> 0 -> t <> 1 ->
  exec m (IErrhand t) s = R tt (set_ttarget s (TAddr t)).
Proof.
  intros Ha H0 H1. unfold exec, bind, get. rewrite Ha.
  replace (t =? 0) with false by lia.
  replace (t =? 1) with false by lia.
  reflexivity.
Qed.

Lemma do_trap_total m c s :
  ttarget_ s <> TNext -> exists s', do_trap m c true s = Next s'.
Proof.
  intro Ht. unfold do_trap. destruct s; cbn in *.
  destruct handler_active, ttarget_; cbn; try (eexists; reflexivity). contradiction.
Qed.

Lemma end_check_next m t : (exists s', t = Next s') -> exists s', end_check m t = Next s'.
Proof. intros [s' ->]. cbn. destruct (negb (halted s') && (pc s' >=? code_len m)); eexists; reflexivity. Qed.
