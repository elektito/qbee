(* Proofs about Models/DbgEval.v (the debugger's expression evaluator) and its
   relation to the machine (Models/Cpu.v), the storage layout (Models/Layout.v,
   Proofs/LayoutProofs.v) and the constant folder (Models/Fold.v,
   Proofs/FoldProofs.v).  Statements used by Props/C13.v. *)
From Coq Require Import ZArith List Bool Lia ZifyBool.
From QV Require Import Sx Strs Fl Cell Machine Cpu Layout Fold ListIndex LayoutProofs FoldProofs DbgEval.
Import ListNotations.
Open Scope Z_scope.

Lemma eval_lvalue_ext di s s' n idxr path : heap s = heap s' -> cur s = cur s' ->
  eval_lvalue di s n idxr path = eval_lvalue di s' n idxr path.
Proof. intros H1 H2. destruct s, s'. cbn in H1, H2. subst. reflexivity. Qed.


(* the indices of an Lvalue are a nested list: the induction over them runs
   inside the fixpoint over the expression *)
Theorem deval_ext di s s' : heap s = heap s' -> cur s = cur s' ->
  forall e, deval di s e = deval di s' e.
Proof.
  intros H1 H2. fix IH 1. intros [ty v | t | n idx path | op l r | op a | a]; cbn [deval].
  - reflexivity.
  - reflexivity.
  - rewrite (eval_lvalue_ext di s s') by assumption. f_equal.
    induction idx as [|x idx IHidx]; [reflexivity|]. cbn [map]. rewrite (IH x), IHidx. reflexivity.
  - rewrite (IH l), (IH r). reflexivity.
  - rewrite (IH a). reflexivity.
  - apply IH.
Qed.

Theorem dbg_print_reads_only di s s' e : heap s = heap s' -> cur s = cur s' ->
  dbg_print di s e = dbg_print di s' e.
Proof. intros H1 H2. unfold dbg_print. rewrite (deval_ext di s s' H1 H2). reflexivity. Qed.

(* in particular the operand stack, the program counter, the halt flag, the
   trap state, the devices and the output do not matter *)
Corollary dbg_print_ignores_control di s e :
  dbg_print di s e = dbg_print di (mkSt 0 0 [] (heap s) (cur s) false H_NONE None true TNone false 0 false 0 0 None
                                        Fold.empty_script []) e.
Proof. apply dbg_print_reads_only; reflexivity. Qed.

Lemma dbg_print_lv di s n idx path :
  dbg_print di s (ELv n idx path) = dres_of (eval_lvalue di s n (map (deval di s) idx) path).
Proof. reflexivity. Qed.

Definition in_frame (s : st) (g : Z) (sg : seg) (cs : Z) : Prop :=
  cur s = Some g /\ 0 <= g /\ nth_error (heap s) (Z.to_nat g) = Some sg /\
  exists prev ra orig, s_kind sg = SFrame prev cs ra orig.

Lemma frame_info_ok s g sg cs : in_frame s g sg cs -> frame_info s = Ok (g, cs).
Proof.
  intros (Hc & Hg & Hs & prev & ra & orig & Hk). unfold frame_info.
  rewrite Hc, nthZ_nat, Hs, Hk by assumption. reflexivity.
Qed.

Definition not_const (di : dbginfo) (cs : Z) (n : str) : Prop :=
  assoc (r_consts (find_routine di cs)) n = None /\ assoc (d_gconsts di) n = None.

Lemma eval_var_local di R g n i :
  has_key (d_globals di) n = false ->
  local_var_idx (d_env di) (r_params R) (r_locals R) n = Some i ->
  eval_var di R g n = Ok (g, i).
Proof. intros Hg Hl. unfold eval_var. rewrite Hg, Hl. reflexivity. Qed.

Lemma eval_var_shared di R g n i :
  has_key (d_globals di) n = true -> global_var_idx (d_env di) (d_globals di) n = Some i ->
  eval_var di R g n = Ok (0, i).
Proof. intros Hg Hi. unfold eval_var. rewrite Hg, Hi. reflexivity. Qed.

(* evaluation after the program has returned from its main frame (cur_frame
   is None): every variable lookup raises AttributeError out of do_print *)
Theorem no_frame_crashes di s n idx path :
  cur s = None -> dbg_print di s (ELv n idx path) = DCrash K_ATTR.
Proof.
  intro Hc. destruct s. cbn in Hc. subst. reflexivity.
Qed.

Lemma get_cell_ok {h g i sg c} :
  0 <= g -> nth_error h (Z.to_nat g) = Some sg -> 0 <= i ->
  nth_error (s_cells sg) (Z.to_nat i) = Some c -> get_cell h g i = Ok c.
Proof.
  intros Hg Hs Hi Hc. unfold get_cell. rewrite nthZ_nat, Hs by assumption.
  rewrite nthZ_nat, Hc by assumption. reflexivity.
Qed.

Lemma frame_cell {s g sg cs i c} :
  in_frame s g sg cs -> 0 <= i -> nth_error (s_cells sg) (Z.to_nat i) = Some c -> get_cell (heap s) g i = Ok c.
Proof. intros (_ & Hg & Hs & _). exact (get_cell_ok Hg Hs). Qed.

(* subscripts that are literals *)
Definition ilit (z : Z) : dexpr := ENum 2 (PInt z).

Lemma idx_values_lits di s idxs :
  idx_values (map (deval di s) (map ilit idxs)) = Ok (map (fun z => Some (PInt z)) idxs).
Proof.
  induction idxs as [|z r IH]; [reflexivity|]. cbn [map idx_values]. rewrite IH. reflexivity.
Qed.

Lemma idx_ints_lits idxs : idx_ints (map (fun z => Some (PInt z)) idxs) = Ok idxs.
Proof.
  induction idxs as [|z r IH]; [reflexivity|]. cbn [map idx_ints index_of rbind]. rewrite IH. reflexivity.
Qed.

(* the cell that the variable cell (g, i) with content c stands for: one
   reference is followed (the [followed] of eval_lvalue) *)
Definition follow (h : list seg) (g i : Z) (c : option cell) : res (Z * Z * option cell) :=
  match c with
  | Some (CRef g1 i1) => rdo c1 <- get_cell h g1 i1; Ok (g1, i1, c1)
  | _ => Ok (g, i, c)
  end.

Section Lvalue.
(* eval_lvalue on a name that is not a constant, by what eval_var finds *)
Context {di : dbginfo} {s : st} {g : Z} {sg : seg} {cs : Z} {n : str}.
Hypothesis Hf : in_frame s g sg cs.
Hypothesis Hc : not_const di cs n.

Lemma eval_lvalue_unknown idxr path :
  eval_var di (find_routine di cs) g n = EvalErr -> eval_lvalue di s n idxr path = XEvalErr.
Proof.
  intro Hv. unfold eval_lvalue. rewrite (frame_info_ok s g sg cs Hf), (proj1 Hc), (proj2 Hc), Hv. reflexivity.
Qed.

(* the variable is cell (g0, i0) holding c0, which stands for cell (g1, i1)
   holding c1; what is done with it depends on the type of the name alone *)
Context {g0 i0 : Z} {c0 : option cell} {g1 i1 : Z} {c1 : option cell}.
Hypothesis Hv : eval_var di (find_routine di cs) g n = Ok (g0, i0).
Hypothesis Hc0 : get_cell (heap s) g0 i0 = Ok c0.
Hypothesis Hfol : follow (heap s) g0 i0 c0 = Ok (g1, i1, c1).

(* whatever subscripts or fields follow the name *)
Lemma eval_lvalue_builtin k idxr path : main_type di n = TBuiltin k ->
  eval_lvalue di s n idxr path = match c1 with None => XEvalErr | Some c => xres_of_sval (Ok (cell_sval c)) end.
Proof.
  intro Ht. unfold eval_lvalue. unfold follow in Hfol.
  rewrite Ht, (frame_info_ok s g sg cs Hf), (proj1 Hc), (proj2 Hc), Hv, Hc0, Hfol. reflexivity.
Qed.

Lemma eval_lvalue_record m path : main_type di n = TRecord m ->
  eval_lvalue di s n [] path = xres_of_sval (rdo v <- read_struct (heap s) (d_env di) m g1 i1; get_field v path).
Proof.
  intro Ht. unfold eval_lvalue. unfold follow in Hfol.
  rewrite Ht, (frame_info_ok s g sg cs Hf), (proj1 Hc), (proj2 Hc), Hv, Hc0, Hfol. reflexivity.
Qed.

Lemma eval_lvalue_element bs0 elem idxs : main_type di n = TArray bs0 elem -> idxs <> [] ->
  eval_lvalue di s n (map (deval di s) (map ilit idxs)) [] =
  xres_of_sval (rdo ab <- read_array (heap s) (d_env di) elem g1 i1; array_at elem (fst ab) (snd ab) idxs).
Proof.
  intros Ht Hidx. unfold eval_lvalue. unfold follow in Hfol.
  rewrite Ht, (frame_info_ok s g sg cs Hf), (proj1 Hc), (proj2 Hc), Hv, Hc0, Hfol.
  destruct (read_array _ _ _ _ _) as [[t bs]| | |]; try reflexivity. cbn [rbind fst snd].
  rewrite idx_values_lits. cbn [rbind]. rewrite idx_ints_lits. cbn [rbind].
  destruct idxs; [congruence|]. destruct (array_at _ _ _ _); reflexivity.
Qed.

End Lvalue.

(* n is a variable of the routine of the current frame, neither SHARED nor a
   constant; the debugger takes it to be of type t; its cell i of the frame
   holds c0 *)
Inductive local_var (di : dbginfo) (s : st) (g : Z) (sg : seg) (cs : Z) (n : str) (t : ty) (i : Z)
                    (c0 : option cell) : Prop :=
  local_var_intro :
    in_frame s g sg cs -> not_const di cs n ->
    main_type di n = t ->
    has_key (d_globals di) n = false ->
    local_var_idx (d_env di) (r_params (find_routine di cs)) (r_locals (find_routine di cs)) n = Some i ->
    0 <= i ->
    nth_error (s_cells sg) (Z.to_nat i) = Some c0 ->
    local_var di s g sg cs n t i c0.
Arguments local_var_intro {di s g sg cs n t i c0}.

Lemma local_var_cell {di s g sg cs n t i c0} : local_var di s g sg cs n t i c0 ->
  eval_var di (find_routine di cs) g n = Ok (g, i) /\ get_cell (heap s) g i = Ok c0.
Proof.
  intros [Hf _ _ Hg Hl Hi Hcell]. split; [apply eval_var_local; assumption | exact (frame_cell Hf Hi Hcell)].
Qed.

(* scalars: the debugger returns the content of the cell the machine's read
   instruction pushes (same index function) *)

Definition pv_of (c : cell) : pyval := Cpu.pv c.

Lemma scalar_value c : (cell_ty c =? 7) = false ->
  dres_of (xres_of_sval (Ok (cell_sval c))) = DVal (pv_of c).
Proof. destruct c; simpl; intro H; try reflexivity; discriminate. Qed.

(* a variable of the current frame (l = true) or a SHARED one (l = false) *)
Theorem scalar_agrees di m s g sg cs n k l g0 sg0 i c :
  in_frame s g sg cs -> not_const di cs n ->
  main_type di n = TBuiltin k ->
  eval_var di (find_routine di cs) g n = Ok (g0, i) ->
  scope_ok l s g0 -> 0 <= g0 -> nth_error (heap s) (Z.to_nat g0) = Some sg0 -> 0 <= i ->
  nth_error (s_cells sg0) (Z.to_nat i) = Some (Some c) ->
  (cell_ty c =? 7) = false ->
  dbg_print di s (ELv n [] []) = DVal (pv_of c) /\
  exec m (IRead l (cell_ty c) i) s = R tt (set_stack s (c :: stack s)).
Proof.
  intros Hf Hc Ht Hv Hsc Hg0 Hs0 Hi Hcell Hty. split.
  - assert (Hfol : follow (heap s) g0 i (Some c) = Ok (g0, i, Some c))
      by (destruct c; try discriminate Hty; reflexivity).
    rewrite dbg_print_lv, (eval_lvalue_builtin Hf Hc Hv (get_cell_ok Hg0 Hs0 Hi Hcell) Hfol k) by exact Ht.
    apply scalar_value, Hty.
  - apply read_set_pure with (g := g0) (sg := sg0); assumption.
Qed.

(* parameters: the frame cell holds a reference (to the caller's variable,
   array element, record field, or to a temporary appended to the callee's
   frame for a by-value argument); the debugger follows it once, the generated
   code reads the reference and dereferences it *)
Theorem param_agrees di m s g sg cs n k idx g1 i1 sg1 c :
  local_var di s g sg cs n (TBuiltin k) idx (Some (CRef g1 i1)) ->
  0 <= g1 -> nth_error (heap s) (Z.to_nat g1) = Some sg1 -> 0 <= i1 ->
  nth_error (s_cells sg1) (Z.to_nat i1) = Some (Some c) ->
  (cell_ty c =? 7) = false ->
  dbg_print di s (ELv n [] []) = DVal (pv_of c) /\
  exec m (IRead true 7 idx) s = R tt (set_stack s (CRef g1 i1 :: stack s)) /\
  exec m (IDeref (cell_ty c)) (set_stack s (CRef g1 i1 :: stack s)) = R tt (set_stack s (c :: stack s)).
Proof.
  intros L Hg1 Hs1 Hi1 Hc1 Hty. destruct (local_var_cell L) as [Hv Hc0].
  destruct L as [Hf Hc Ht _ _ Hi Hcell]. pose proof Hf as (Hcur & Hg0 & Hs & _). split; [|split].
  - assert (Hfol : follow (heap s) g idx (Some (CRef g1 i1)) = Ok (g1, i1, Some c)).
    { unfold follow. rewrite (get_cell_ok Hg1 Hs1 Hi1 Hc1). reflexivity. }
    rewrite dbg_print_lv, (eval_lvalue_builtin Hf Hc Hv Hc0 Hfol k) by exact Ht.
    apply scalar_value, Hty.
  - cbv beta iota delta [exec]. unfold read_generic. cbn [Z.eqb Pos.eqb].
    unfold bind at 1. rewrite (read_var_ok true idx s g sg) by assumption. rewrite Hcell. reflexivity.
  - rewrite (deref_set_pure m (cell_ty c) g1 i1 (stack s) _ sg1 c) by (assumption || reflexivity).
    reflexivity.
Qed.

(* arrays: the nested lists of read_array, indexed by QArray.at, select the
   cell the machine's arridx computes (row-major), for every rank *)

Lemma read_loop_nth {rd stride} : forall {n b l},
  read_loop rd stride n b = Ok l ->
  forall k, (k < n)%nat -> exists x, rd (b + Z.of_nat k * stride) = Ok x /\ nth_error l k = Some x.
Proof.
  induction n as [|n IH]; intros b l H k Hk; [lia|]. cbn [read_loop] in H.
  destruct (rd b) as [x| |k0|] eqn:Ex; try discriminate H.
  destruct (read_loop rd stride n (b + stride)) as [r| |k0|] eqn:Er; try discriminate H.
  injection H as <-. destruct k as [|k].
  - exists x. rewrite Z.add_0_r. split; [exact Ex | reflexivity].
  - destruct (IH _ _ Er k) as (y & Hy & Hn); [lia|]. exists y. split; [|exact Hn].
    rewrite <- Hy. f_equal. lia.
Qed.

Lemma arr_at_read_sub {leaf es} : forall {bs base t} idxs,
  bs <> [] -> read_sub leaf es bs base = Ok t -> length idxs = length bs ->
  match elem_number bs idxs with
  | Some n => exists x, leaf (base + n * es) = Ok x /\ arr_at t idxs bs = Ok x
  | None => arr_at t idxs bs = EvalErr
  end.
Proof.
  induction bs as [|[lb ub] bs IH]; intros base t idxs Hne Hr Hlen; [congruence|].
  destruct idxs as [|i rest]; [discriminate Hlen|].
  cbn [elem_number arr_at]. destruct ((i <? lb) || (i >? ub)) eqn:C; [reflexivity|].
  cbn [read_sub] in Hr.
  destruct (read_loop _ _ _ _) as [l| |k0|] eqn:El; try discriminate Hr.
  injection Hr as <-.
  destruct (read_loop_nth El (Z.to_nat (i - lb))) as (x & Hx & ->); [lia|].
  rewrite Z2Nat.id in Hx by lia.
  destruct bs as [|b bs].
  - destruct rest; [|discriminate Hlen]. exists x. split; [|reflexivity].
    rewrite <- Hx. cbn [read_sub dims map prod_list elem_number]. f_equal. clear. lia.
  - destruct rest as [|i2 rest]; [discriminate Hlen|].
    specialize (IH _ _ (i2 :: rest) ltac:(discriminate) Hx (eq_add_S _ _ Hlen)).
    destruct (elem_number (b :: bs) (i2 :: rest)) as [r|]; [|exact IH].
    destruct IH as (y & Hy & Ha). exists y. split; [|exact Ha]. rewrite <- Hy. f_equal. clear. lia.
Qed.

Lemma read_bounds_ok {h g sg} : 0 <= g -> nth_error h (Z.to_nat g) = Some sg ->
  forall bs b, 0 <= b ->
  (forall k lb ub, nth_error bs k = Some (lb, ub) ->
     nth_error (s_cells sg) (Z.to_nat (b + 2 * Z.of_nat k)) = Some (Some (CL lb)) /\
     nth_error (s_cells sg) (Z.to_nat (b + 2 * Z.of_nat k + 1)) = Some (Some (CL ub))) ->
  read_bounds h g (length bs) b = Ok bs.
Proof.
  intros Hg Hs. induction bs as [|[lb ub] bs IH]; intros b Hb Hh; [reflexivity|].
  destruct (Hh 0%nat lb ub eq_refl) as [H1 H2]. rewrite Z.add_0_r in H1, H2.
  cbn [length read_bounds].
  rewrite (get_cell_ok Hg Hs Hb H1), (get_cell_ok (i := b + 1) Hg Hs ltac:(lia) H2).
  cbn [rbind cell_int]. rewrite (IH (b + 2)); [reflexivity | lia |].
  intros k lb' ub' Hk. replace (b + 2 + 2 * Z.of_nat k) with (b + 2 * Z.of_nat (S k)) by lia.
  exact (Hh (S k) lb' ub' Hk).
Qed.

Definition cell_leaf (h : list seg) (g : Z) : Z -> res atree :=
  fun b => rdo c <- get_cell h g b; Ok (ACell c).

Lemma read_array_ok {h} env k {g sg base es bs t} :
  0 <= g -> nth_error h (Z.to_nat g) = Some sg -> 0 <= base ->
  has_header (s_cells sg) base es bs -> bs <> [] ->
  read_sub (cell_leaf h g) es bs (base + header_size bs) = Ok t ->
  read_array h env (TBuiltin k) g base = Ok (t, bs).
Proof.
  intros Hg Hs Hb (H1 & H2 & H3) Hne Ht. unfold read_array.
  rewrite (get_cell_ok (i := base + 1) Hg Hs ltac:(lia) H1), (get_cell_ok (i := base + 2) Hg Hs ltac:(lia) H2).
  cbn [rbind cell_int]. unfold rank. rewrite Nat2Z.id.
  rewrite (read_bounds_ok Hg Hs bs (base + 3) ltac:(lia) H3). cbn [rbind].
  destruct bs as [|b bs']; [congruence|].
  replace (base + 3 + 2 * _) with (base + header_size (b :: bs')) by (unfold header_size, rank; lia).
  unfold cell_leaf in Ht. rewrite Ht. reflexivity.
Qed.

Definition cell_or_default (ft : ty) (c : option cell) : sval :=
  match c with Some c' => cell_sval c' | None => SV (default_val ft) end.

(* QArray.at on what read_array built from an array of scalars whose elements
   start at [base + header_size bs]: the content of the cell arridx computes *)
Lemma array_at_read {h g} k {es bs base t} idxs :
  bs <> [] -> read_sub (cell_leaf h g) es bs (base + header_size bs) = Ok t ->
  array_at (TBuiltin k) t bs idxs =
  match elem_index base es bs idxs with
  | Some i => rdo c <- get_cell h g i; Ok (cell_or_default (TBuiltin k) c)
  | None => EvalErr
  end.
Proof.
  intros Hne Hr. unfold array_at, elem_index.
  destruct (Nat.eqb (length idxs) (length bs)) eqn:El; cbn [negb].
  - pose proof (arr_at_read_sub idxs Hne Hr (proj1 (Nat.eqb_eq _ _) El)) as H.
    destruct (elem_number bs idxs) as [n|]; [|rewrite H; reflexivity].
    destruct H as (x & Hx & ->). unfold cell_leaf in Hx.
    destruct (get_cell h g _) as [c| |k0|]; try discriminate Hx.
    injection Hx as <-. destruct c; reflexivity.
  - destruct (elem_number bs idxs) eqn:En; [|reflexivity].
    rewrite (elem_number_length _ _ _ En), Nat.eqb_refl in El. discriminate El.
Qed.

Section LocalArray.
(* n is a static array of scalars in the current frame with its header at cell
   [base]; t is what read_array makes of its elements *)
Context {di : dbginfo} {s : st} {g : Z} {sg : seg} {cs : Z} {n : str}.
Context {bs0 : list (Z * Z)} {k base es : Z} {bs : list (Z * Z)} {t : atree}.
Hypothesis L : local_var di s g sg cs n (TArray bs0 (TBuiltin k)) base None.
Hypothesis Hh : has_header (s_cells sg) base es bs.
Hypothesis Hne : bs <> [].
Hypothesis Hrd : read_sub (cell_leaf (heap s) g) es bs (base + header_size bs) = Ok t.

Lemma element_print idxs : idxs <> [] ->
  dbg_print di s (ELv n (map ilit idxs) []) =
  match elem_index base es bs idxs with
  | Some i => dres_of (xres_of_sval (rdo c <- get_cell (heap s) g i; Ok (cell_or_default (TBuiltin k) c)))
  | None => DEvalError
  end.
Proof.
  intro Hidx. destruct (local_var_cell L) as [Hv Hc0]. destruct L as [Hf Hc Ht _ _ Hb _].
  pose proof Hf as (_ & Hg0 & Hs & _).
  rewrite dbg_print_lv, (eval_lvalue_element Hf Hc Hv Hc0 eq_refl bs0 (TBuiltin k) idxs Ht Hidx).
  rewrite (read_array_ok (d_env di) k Hg0 Hs Hb Hh Hne Hrd). cbn [rbind fst snd].
  rewrite (array_at_read k idxs Hne Hrd).
  destruct (elem_index base es bs idxs) as [ci|]; reflexivity.
Qed.

Lemma element_value idxs cidx c0 :
  Forall (fun b => fst b <= snd b) bs -> 0 < es ->
  elem_index base es bs idxs = Some cidx ->
  nth_error (s_cells sg) (Z.to_nat cidx) = Some c0 ->
  dbg_print di s (ELv n (map ilit idxs) []) = dres_of (xres_of_sval (Ok (cell_or_default (TBuiltin k) c0))).
Proof.
  intros Hbs Hes Hei Hcell. destruct L as [Hf _ _ _ _ Hb _].
  assert (Hci : 0 <= cidx).
  { pose proof (elem_index_in_array base es bs idxs cidx Hbs Hes Hei) as [Hlo _].
    unfold header_size, rank in Hlo. lia. }
  rewrite element_print, Hei.
  - rewrite (frame_cell Hf Hci Hcell). reflexivity.
  - intros ->. destruct bs as [|[lb ub] bs']; [congruence | discriminate Hei].
Qed.

End LocalArray.

Lemma default_print k : 1 <= k <= 5 ->
  dres_of (xres_of_sval (Ok (cell_or_default (TBuiltin k) None))) = DVal (pv_of (default_cell k)).
Proof.
  intro Hk. assert (Hk' : k = 1 \/ k = 2 \/ k = 3 \/ k = 4 \/ k = 5) by lia.
  destruct Hk' as [-> | [-> | [-> | [-> | ->]]]]; reflexivity.
Qed.

(* the debugger's read_array reads EVERY cell of the array; it succeeds when
   the array lies inside its segment *)
Lemma read_loop_total rd stride : forall n b,
  (forall k, (k < n)%nat -> exists x, rd (b + Z.of_nat k * stride) = Ok x) ->
  exists l, read_loop rd stride n b = Ok l.
Proof.
  induction n as [|n IH]; intros b H; [eexists; reflexivity|].
  destruct (H 0%nat ltac:(lia)) as (x & Hx). rewrite Z.add_0_r in Hx.
  destruct (IH (b + stride)) as (l & Hl).
  { intros k Hk. destruct (H (S k) ltac:(lia)) as (y & Hy). exists y. rewrite <- Hy. f_equal. lia. }
  exists (x :: l). cbn [read_loop]. rewrite Hx, Hl. reflexivity.
Qed.

Lemma read_sub_total {h g sg es} : 0 <= g -> nth_error h (Z.to_nat g) = Some sg -> 0 < es ->
  forall bs base, Forall (fun b => fst b <= snd b) bs -> 0 <= base ->
  base + prod_list (dims bs) * es <= Z.of_nat (length (s_cells sg)) ->
  exists t, read_sub (cell_leaf h g) es bs base = Ok t.
Proof.
  intros Hg Hs Hes. induction bs as [|[lb ub] bs IH]; intros base Hb H0 Hfit.
  - cbn [read_sub]. unfold cell_leaf. cbn [dims map prod_list] in Hfit.
    destruct (nth_error (s_cells sg) (Z.to_nat base)) as [c|] eqn:E.
    + rewrite (get_cell_ok Hg Hs H0 E). eexists; reflexivity.
    + apply nth_error_None in E. lia.
  - inversion Hb as [|? ? Hlu Hb']; subst. cbn [fst snd] in Hlu.
    change (dims ((lb, ub) :: bs)) with ((ub - lb + 1) :: dims bs) in Hfit. cbn [prod_list] in Hfit.
    pose proof (prod_dims_pos bs Hb') as Hp.
    cbn [read_sub].
    destruct (read_loop_total (read_sub (cell_leaf h g) es bs) (prod_list (dims bs) * es)
                              (Z.to_nat (ub - lb + 1)) base) as (l & Hl).
    { intros k Hk. apply IH; [assumption | nia | nia]. }
    rewrite Hl. eexists; reflexivity.
Qed.

Theorem element_agrees_in_segment di m s g sg cs n bs0 k base es bs idxs cidx c :
  local_var di s g sg cs n (TArray bs0 (TBuiltin k)) base None ->
  has_header (s_cells sg) base es bs -> bs <> [] ->
  Forall (fun b => fst b <= snd b) bs -> 0 < es ->
  base + header_size bs + array_cells es bs <= Z.of_nat (length (s_cells sg)) ->
  elem_index base es bs idxs = Some cidx ->
  nth_error (s_cells sg) (Z.to_nat cidx) = Some (Some c) ->
  (cell_ty c =? 7) = false ->
  dbg_print di s (ELv n (map ilit idxs) []) = DVal (pv_of c) /\
  forall s1 rest, heap s1 = heap s -> stack s1 = CRef g base :: map CL (rev idxs) ++ rest ->
    exec m (IArridx (rank bs)) s1 = R tt (set_stack s1 (CRef g cidx :: rest)) /\
    exec m (IDeref (cell_ty c)) (set_stack s1 (CRef g cidx :: rest)) = R tt (set_stack s1 (c :: rest)).
Proof.
  intros L Hh Hne Hbs Hes Hfit Hei Hcell Hty.
  pose proof L as [(_ & Hg0 & Hs & _) _ _ _ _ Hb _].
  pose proof (elem_index_in_array base es bs idxs cidx Hbs Hes Hei) as [Hlo _].
  unfold header_size, rank in Hlo.
  split.
  - destruct (read_sub_total Hg0 Hs Hes bs (base + header_size bs) Hbs) as (t & Hrd).
    + unfold header_size, rank. lia.
    + unfold array_cells in Hfit. lia.
    + rewrite (element_value L Hh Hne Hrd idxs cidx (Some c)) by assumption.
      apply scalar_value, Hty.
  - intros s1 rest Hheap Hst. rewrite <- Hheap in Hs. split.
    + apply (arridx_ok m g base es bs idxs rest s1 sg cidx); assumption.
    + rewrite (deref_set_pure m (cell_ty c) g cidx rest _ sg c) by (assumption || reflexivity || lia).
      reflexivity.
Qed.

(* arithmetic: over numeric leaves that hold a value of their static type, the
   debugger computes exactly what the compiler's constant folder computes on
   the values read *)

Lemma dres_of_val x v : dres_of x = DVal v -> x = XV v.
Proof. destruct x as [[| | | |[]|]| | |]; try discriminate. intro H. injection H as ->. reflexivity. Qed.

Section FoldTie.
Variable di : dbginfo.
Variable s : st.
Variable rho : str -> Z * pyval.      (* static type and value of each variable *)

Definition good_var (n : str) : Prop :=
  lv_type di n false [] = Some (fst (rho n)) /\
  is_num (fst (rho n)) = true /\
  eval_lvalue di s n [] [] = XV (snd (rho n)) /\
  py_type_conv (fst (rho n)) (snd (rho n)) = FVal (snd (rho n)).

Fixpoint to_c (e : dexpr) : cexpr :=
  match e with
  | ENum ty v => CNum ty v
  | EStr t => CStrLit t
  | ELv n _ _ => CNum (fst (rho n)) (snd (rho n))
  | EBin op l r => CBin op (to_c l) (to_c r)
  | EUn op a => CUn op (to_c a)
  | EParen a => CParen (to_c a)
  end.

Fixpoint num_expr (e : dexpr) : Prop :=
  match e with
  | ENum ty _ => is_num ty = true
  | EStr _ => False
  | ELv n idx path => idx = [] /\ path = [] /\ good_var n
  | EBin _ l r => num_expr l /\ num_expr r
  | EUn _ a => num_expr a
  | EParen a => num_expr a
  end.

Lemma bin_type_num op lt rt : is_num lt = true -> is_num rt = true -> is_num (bin_type op lt rt) = true.
Proof.
  intros Hl Hr.
  destruct (is_num_cases lt Hl) as [-> | [-> | [-> | ->]]];
  destruct (is_num_cases rt Hr) as [-> | [-> | [-> | ->]]]; destruct op; reflexivity.
Qed.

Lemma un_type_num op t : is_num t = true -> is_num (un_type op t) = true.
Proof.
  intro H. destruct (is_num_cases t H) as [-> | [-> | [-> | ->]]]; destruct op; reflexivity.
Qed.

Lemma dbin_type_num op lt rt : is_num lt = true -> is_num rt = true -> dbin_type op lt rt = bin_type op lt rt.
Proof.
  intros Hl Hr. unfold dbin_type. replace ((lt =? 6) || (rt =? 6)) with false by (unfold is_num in *; lia).
  reflexivity.
Qed.

Theorem deval_is_fold : forall e, num_expr e ->
  dtype di e = Some (static_type (to_c e)) /\
  is_num (static_type (to_c e)) = true /\
  deval di s e = XF (fold_eval (to_c e)).
Proof.
  induction e as [ty v | t | n idx path | op l IHl r IHr | op a IHa | a IHa]; cbn [num_expr]; intro H.
  - repeat split; try assumption; reflexivity.
  - contradiction.
  - destruct H as (-> & -> & (Ht & Hn & Hv & Hc)).
    repeat split; [exact Ht | exact Hn |].
    cbn [deval map]. rewrite Hv. cbn [to_c fold_eval]. rewrite Hc. reflexivity.
  - destruct H as [H1 H2]. destruct (IHl H1) as (Tl & Nl & El). destruct (IHr H2) as (Tr & Nr & Er).
    cbn [dtype to_c static_type deval fold_eval].
    rewrite Tl, Tr, Nl, Nr, (dbin_type_num op _ _ Nl Nr), El, Er.
    repeat split; [apply bin_type_num; assumption|]. cbn [andb xbind].
    destruct (coerce_res _ (fold_eval (to_c l))); try reflexivity. cbn [vbind fbind].
    destruct (coerce_res _ (fold_eval (to_c r))); reflexivity.
  - destruct (IHa H) as (Ta & Na & Ea).
    cbn [dtype to_c static_type]. rewrite Ta. cbn [option_map].
    repeat split; [apply un_type_num; assumption|].
    cbn [deval fold_eval]. rewrite Ta, Na, Ea. reflexivity.
  - exact (IHa H).
Qed.

Corollary dbg_print_is_fold e : num_expr e -> dbg_print di s e = dres_of (XF (fold_eval (to_c e))).
Proof. intro H. unfold dbg_print. destruct (deval_is_fold e H) as (_ & _ & ->). reflexivity. Qed.

(* hence wherever the folder is sound, a printed value of the expression's
   static type is the cell the program computes *)
Theorem printed_is_computed e v :
  num_expr e -> sound_at (to_c e) ->
  dbg_print di s e = DVal v -> py_type_conv (static_type (to_c e)) v = FVal v ->
  exists cell, rt_eval (to_c e) = RVal cell /\ pv_of cell = v.
Proof.
  intros Hn (Hs & _) Hv Hconv. destruct (deval_is_fold e Hn) as (_ & Hnum & He).
  unfold dbg_print in Hv. rewrite He in Hv. apply dres_of_val in Hv. injection Hv as Hv.
  destruct (Hs (static_type (to_c e)) v) as (cell & Hcv & Hrt).
  { unfold fold. rewrite Hv, Hnum, Hconv. reflexivity. }
  exists cell. split; [exact Hrt|].
  destruct (is_num_cases _ Hnum) as [E | [E | [E | E]]]; rewrite E in Hcv;
    destruct v; try discriminate Hcv; injection Hcv as <-; reflexivity.
Qed.

End FoldTie.

Lemma int_local_good {di s g sg cs rho n idx z} :
  local_var di s g sg cs n (TBuiltin 1) idx (Some (CI z)) -> rho n = (1, PInt z) -> good_var di s rho n.
Proof.
  intros L Hr. destruct (local_var_cell L) as [Hv Hc0]. destruct L as [Hf Hc Ht _ _ _ _].
  unfold good_var. rewrite Hr. repeat split.
  - unfold lv_type. rewrite Ht. reflexivity.
  - exact (eval_lvalue_builtin Hf Hc Hv Hc0 eq_refl 1 [] [] Ht).
Qed.

(* the machine reads an INTEGER variable holding z as it loads the literal z *)
Lemma int_read_is_lit m {s g sg cs i z} :
  in_frame s g sg cs -> 0 <= i -> nth_error (s_cells sg) (Z.to_nat i) = Some (Some (CI z)) ->
  in_int z = true ->
  exists j, push_lit 1 (PInt z) = CgOk [j] /\
    forall s1, heap s1 = heap s -> cur s1 = cur s -> exec m (IRead true 1 i) s1 = exec m j s1.
Proof.
  intros (Hcur & Hg & Hs & _) Hi Hcell Hz.
  destruct (exec_lit_int m 1 z (or_introl eq_refl) Hz) as (j & Pj & Ej).
  exists j. split; [exact Pj|]. intros s1 Hh Hc. rewrite Ej.
  apply (read_set_pure m true 1 i s1 g sg (CI z)); try assumption; try reflexivity.
  - unfold scope_ok. rewrite Hc. exact Hcur.
  - rewrite Hh. exact Hs.
Qed.

Lemma bin_type_int op : In op int_ops -> bin_type op 1 1 = 1.
Proof. intro H. apply int_ops_int_op in H. destruct op; reflexivity || discriminate H. Qed.

(* INTEGER x INTEGER, the 16 operators for which the folder is proved sound
   (FoldProofs.fold_sound_int): the debugger is the folder on the values read,
   reading the variables pushes the cells that the literals of [c] push, hence
   a printed value is the cell the program computes *)
Theorem int_binop_agrees di m s g sg cs rho x y ix iy op a b :
  In op int_ops ->
  local_var di s g sg cs x (TBuiltin 1) ix (Some (CI a)) ->
  local_var di s g sg cs y (TBuiltin 1) iy (Some (CI b)) ->
  in_int a = true -> in_int b = true ->
  rho x = (1, PInt a) -> rho y = (1, PInt b) ->
  let e := EBin op (ELv x [] []) (ELv y [] []) in
  let c := CBin op (CNum 1 (PInt a)) (CNum 1 (PInt b)) in
  dbg_print di s e = dres_of (XF (fold_eval c)) /\
  (exists i j, push_lit 1 (PInt a) = CgOk [i] /\ push_lit 1 (PInt b) = CgOk [j] /\
     (forall s1, heap s1 = heap s -> cur s1 = cur s -> exec m (IRead true 1 ix) s1 = exec m i s1) /\
     (forall s1, heap s1 = heap s -> cur s1 = cur s -> exec m (IRead true 1 iy) s1 = exec m j s1)) /\
  (forall v, dbg_print di s e = DVal v -> exists cell, rt_eval c = RVal cell /\ pv_of cell = v).
Proof.
  intros Hop Lx Ly Ha Hb Hrx Hry e c.
  assert (Hnum : num_expr di s rho e) by (cbn; auto using (int_local_good Lx Hrx), (int_local_good Ly Hry)).
  assert (Hc : to_c rho e = c) by (unfold e, c; cbn [to_c]; rewrite Hrx, Hry; reflexivity).
  assert (Hd : dbg_print di s e = dres_of (XF (fold_eval c))).
  { rewrite <- Hc. apply dbg_print_is_fold, Hnum. }
  split; [exact Hd|]. split.
  - destruct Lx as [Hf _ _ _ _ Hix Hca], Ly as [_ _ _ _ _ Hiy Hcb].
    destruct (int_read_is_lit m Hf Hix Hca Ha) as (i & Pi & Ei).
    destruct (int_read_is_lit m Hf Hiy Hcb Hb) as (j & Pj & Ej).
    exists i, j. auto.
  - intros v Hv.
    assert (Hz : exists z, v = PInt z).
    { rewrite Hd in Hv. apply dres_of_val in Hv. injection Hv as Hv.
      unfold c in Hv. cbn [fold_eval static_type] in Hv. rewrite (bin_type_int op Hop) in Hv.
      change (num_op op 1 1 (PInt a) (PInt b) = FVal v) in Hv.
      rewrite num_op_int in Hv by exact (int_ops_int_op op Hop).
      (* a truth value, or the result where limit lets it through *)
      destruct (int_val op a b) as [r|]; [|discriminate Hv].
      destruct (is_cmp op); [|rewrite limit_int in Hv by auto; destruct (wrapok 1 r); [|discriminate Hv]];
        injection Hv as <-; eauto. }
    destruct Hz as (z & ->). rewrite <- Hc.
    apply (printed_is_computed di s rho e (PInt z) Hnum); rewrite ?Hc.
    + apply fold_sound_int; assumption.
    + exact Hv.
    + unfold c. cbn [static_type]. rewrite (bin_type_int op Hop). reflexivity.
Qed.

(* record fields: read_struct + get_field return the cell at
   base + memlayout.get_dotted_index, the operand of readidx *)

(* the type of the field a path of names ends in (Lvalue.type on records) *)
Fixpoint dotted_type (env : renv) (t : ty) (path : list str) : option ty :=
  match path with
  | [] => Some t
  | f :: rest =>
    match t with
    | TRecord n =>
      match lookup_rec env n with
      | None => None
      | Some (fs, env') =>
        match field_offset env' fs f 0 with
        | None => None
        | Some (_, ft) => dotted_type env' ft rest
        end
      end
    | _ => None
    end
  end.

(* the value the debugger holds for a field of type ft stored at cell i *)
Definition field_val (h : list seg) (env : renv) (g : Z) (ft : ty) (i : Z) : res sval :=
  match ft with
  | TRecord m => read_struct h env m g i
  | _ => rdo c <- get_cell h g i; Ok (cell_or_default ft c)
  end.

(* read_fields and field_offset walk the field list with the same sizes: a
   field that field_offset puts at o (counting from a) was read at idx + o
   (reading from idx + a) *)
Lemma read_fields_assoc {h env g} idx : forall {fs a l},
  read_fields h (fun m i => read_struct h env m g i) (type_size env) g fs (idx + a) = Ok l ->
  forall f o ft, field_offset env fs f a = Some (o, ft) ->
  exists v, assoc l f = Some v /\ field_val h env g ft (idx + o) = Ok v.
Proof.
  induction fs as [|[f0 t0] fs IH]; intros a l Hr f o ft Ho; [discriminate Ho|].
  cbn [read_fields] in Hr. cbn [field_offset] in Ho.
  change (match t0 with TRecord m => read_struct h env m g (idx + a) | _ => _ end)
    with (field_val h env g t0 (idx + a)) in Hr.
  destruct (field_val h env g t0 (idx + a)) as [v0| |k0|] eqn:Ev; try discriminate Hr.
  destruct (type_size env t0) as [sz|]; [|discriminate Hr]. rewrite <- Z.add_assoc in Hr.
  destruct (read_fields _ _ _ _ fs (idx + (a + sz))) as [rest| |k0|] eqn:Er; try discriminate Hr.
  injection Hr as <-. cbn [assoc].
  destruct (str_eqb f f0).
  - injection Ho as <- <-. exists v0. split; [reflexivity | exact Ev].
  - exact (IH _ _ Er f o ft Ho).
Qed.

Lemma read_struct_lookup h env n g base :
  read_struct h env n g base =
  match lookup_rec env n with
  | Some (fs, env') =>
    rdo l <- read_fields h (fun m i => read_struct h env' m g i) (type_size env') g fs base; Ok (SRec l)
  | None => Crash K_KEY
  end.
Proof.
  induction env as [|[n0 fs] env IH]; [reflexivity|].
  cbn [read_struct lookup_rec]. destruct (str_eqb n n0); [reflexivity | exact IH].
Qed.

(* what was read for a value of type t at [base], followed along a path of
   field names that ends in a scalar: the cell at base + get_dotted_index *)
Theorem field_val_path h g : forall path env t base v,
  field_val h env g t base = Ok v ->
  forall off ft, dotted_index env t path = Some off -> dotted_type env t path = Some ft ->
  (forall m, ft <> TRecord m) ->
  exists c, get_cell h g (base + off) = Ok c /\ get_field v path = Ok (cell_or_default ft c).
Proof.
  induction path as [|f rest IH]; intros env t base v Hv off ft Hd Hp Hft.
  - injection Hd as <-. injection Hp as <-. rewrite Z.add_0_r.
    destruct t; try (exfalso; eapply Hft; reflexivity); cbn [field_val] in Hv;
      destruct (get_cell h g base) as [c| |k0|]; try discriminate Hv; injection Hv as <-; eauto.
  - destruct t as [k|n|bs e|e]; try discriminate Hp.
    cbn [field_val] in Hv. rewrite read_struct_lookup in Hv.
    cbn [dotted_index user_type_name dotted_type] in Hd, Hp.
    destruct (lookup_rec env n) as [[fs env']|]; [|discriminate Hd].
    destruct (read_fields _ _ _ _ fs base) as [l| |k0|] eqn:Hl; try discriminate Hv. injection Hv as <-.
    destruct (field_offset env' fs f 0) as [[o ft0]|] eqn:Eo; [|discriminate Hd].
    destruct (dotted_index env' ft0 rest) as [o'|] eqn:Ed; [|discriminate Hd].
    injection Hd as <-.
    rewrite <- (Z.add_0_r base) in Hl.
    destruct (read_fields_assoc base Hl f o ft0 Eo) as (vf & Ha & Hvf).
    destruct (IH env' ft0 (base + o) vf Hvf o' ft Ed Hp Hft) as (c & Hc & Hgf).
    exists c. split; [rewrite Z.add_assoc; exact Hc|].
    cbn [get_field]. rewrite Ha. destruct rest; [exact Hgf|].
    destruct vf; try discriminate Hgf. exact Hgf.
Qed.

Theorem field_agrees di m s g sg cs n rn base path off ft c0 c v :
  local_var di s g sg cs n (TRecord rn) base c0 ->
  (forall g1 i1, c0 <> Some (CRef g1 i1)) ->
  read_struct (heap s) (d_env di) rn g base = Ok v ->
  dotted_index (d_env di) (TRecord rn) path = Some off ->
  dotted_type (d_env di) (TRecord rn) path = Some ft ->
  (forall m0, ft <> TRecord m0) ->
  0 <= base + off ->
  nth_error (s_cells sg) (Z.to_nat (base + off)) = Some (Some c) ->
  (cell_ty c =? 7) = false ->
  dbg_print di s (ELv n [] path) = DVal (pv_of c) /\
  exec m (IReadidx true (cell_ty c) base off) s = R tt (set_stack s (c :: stack s)).
Proof.
  intros L Hnr Hrs Hd Hp Hft Hbo Hcell Hty. destruct (local_var_cell L) as [Hv Hc0].
  destruct L as [Hf Hc Ht _ _ _ _]. split.
  - assert (Hfol : follow (heap s) g base c0 = Ok (g, base, c0))
      by (destruct c0 as [[| | | | |g1 i1]|]; try reflexivity; elim (Hnr g1 i1 eq_refl)).
    rewrite dbg_print_lv. cbn [map].
    rewrite (eval_lvalue_record Hf Hc Hv Hc0 Hfol rn path Ht), Hrs. cbn [rbind].
    destruct (field_val_path (heap s) g path (d_env di) (TRecord rn) base v Hrs off ft Hd Hp Hft) as (cc & Hcc & ->).
    rewrite (frame_cell Hf Hbo Hcell) in Hcc.
    injection Hcc as <-. apply scalar_value, Hty.
  - destruct Hf as (Hcur & Hg0 & Hs & _). apply readidx_set_pure with (g := g) (sg := sg); assumption.
Qed.

(* a concrete stopped program (non-vacuity; Props/C13.v refutes on it) *)

(* TYPE pt: x AS INTEGER, y AS LONG.   DIM SHARED g%.   CONST c% = 7.
   main:  a%, b%, u!, v!, arr(1 TO 2, 0 TO 1) AS LONG, p AS pt
   SUB (code 100..200) with parameter q% (by reference to a%), locals lq AS pt, w AS DOUBLE,
   and STATIC st% (globals cell 1, not in the debugger's global_vars) *)
Definition n_a : str := [97; 37].       Definition n_b : str := [98; 37].
Definition n_u : str := [117; 33].      Definition n_v : str := [118; 33].
Definition n_arr : str := [97; 114; 114].  Definition n_p : str := [112].
Definition n_g : str := [103; 37].      Definition n_q : str := [113; 37].
Definition n_lq : str := [108; 113].    Definition n_w : str := [119].
Definition n_c : str := [99; 37].       Definition n_st : str := [115; 116; 37].
Definition n_x : str := [120].          Definition n_y : str := [121].
Definition n_pt : str := [112; 116].

Definition ex_env : renv := [(n_pt, [(n_x, TBuiltin 1); (n_y, TBuiltin 2)])].
Definition ex_main : routine :=
  mkRoutine 0 0 []
    [(n_a, TBuiltin 1); (n_b, TBuiltin 1); (n_u, TBuiltin 3); (n_v, TBuiltin 3);
     (n_arr, TArray [(1, 2); (0, 1)] (TBuiltin 2)); (n_p, TRecord n_pt)] [].
Definition ex_sub : routine :=
  mkRoutine 100 200 [(n_q, TBuiltin 1)] [(n_lq, TRecord n_pt); (n_w, TBuiltin 4)] [].
Definition ex_di : dbginfo :=
  mkDI ex_env [(n_g, TBuiltin 1)] [(n_c, Some (PInt 7))] ex_main [ex_sub].

Definition f15 : fl := FFin false 3 (-1).    (* FoldProofs.f_1_5 *)
Definition ex_globals : seg := mkSeg [Some (CI 11); Some (CI 5)] SGlobals.
Definition ex_mainframe : seg :=
  mkSeg [Some (CI 3); Some (CI 4); Some (CS f15); Some (CS f_1_6);
         None; Some (CL 2); Some (CL 1); Some (CL 1); Some (CL 2); Some (CL 0); Some (CL 1);
         Some (CL 10); Some (CL 11); Some (CL 20); None;
         Some (CI 8); Some (CL 9)] (SFrame None 10 0 17).
Definition ex_subframe : seg :=
  mkSeg [Some (CRef 1 0); Some (CI 40); Some (CL 41); Some (CD f_0_1)] (SFrame (Some 1) 105 50 4).
Definition ex_state (c : option Z) : st :=
  mkSt 60 0 [] [ex_globals; ex_mainframe; ex_subframe] c false H_NONE None true TNone false 0 false 0 0 None
       Fold.empty_script [].
Definition in_main : st := ex_state (Some 1).
Definition in_sub : st := ex_state (Some 2).
Definition finished : st := ex_state None.

Definition lv (n : str) : dexpr := ELv n [] [].

Example ex_values :
  dbg_print ex_di in_main (lv n_a) = DVal (PInt 3) /\
  dbg_print ex_di in_main (lv n_g) = DVal (PInt 11) /\
  dbg_print ex_di in_main (lv n_c) = DVal (PInt 7) /\
  dbg_print ex_di in_main (ELv n_arr [ilit 2; ilit 0] []) = DVal (PInt 20) /\
  dbg_print ex_di in_main (ELv n_arr [ilit 2; ilit 1] []) = DVal (PInt 0) /\
  dbg_print ex_di in_main (ELv n_arr [ilit 3; ilit 0] []) = DEvalError /\
  dbg_print ex_di in_main (ELv n_arr [ilit 1] []) = DEvalError /\
  dbg_print ex_di in_main (ELv n_p [] [n_y]) = DVal (PInt 9) /\
  dbg_print ex_di in_main (EBin OAdd (lv n_a) (EBin OMul (lv n_b) (ENum 1 (PInt 2)))) = DVal (PInt 11) /\
  dbg_print ex_di in_main (lv n_q) = DEvalError /\
  dbg_print ex_di in_sub (lv n_q) = DVal (PInt 3) /\
  dbg_print ex_di in_sub (lv n_g) = DVal (PInt 11) /\
  dbg_print ex_di in_sub (lv n_a) = DEvalError.
Proof. vm_compute. repeat split; reflexivity. Qed.

(* scalar_agrees and element_agrees_in_segment on the example: their premises can be met *)
Lemma ex_in_frame : in_frame in_main 1 ex_mainframe 10.
Proof. unfold in_frame. repeat split; try reflexivity; try lia. exists None, 0, 17. reflexivity. Qed.

Example ex_local_scalar : forall m,
  dbg_print ex_di in_main (lv n_b) = DVal (PInt 4) /\
  exec m (IRead true 1 1) in_main = R tt (set_stack in_main (CI 4 :: stack in_main)).
Proof.
  intro m.
  assert (P1 : not_const ex_di 10 n_b) by (split; reflexivity).
  exact (scalar_agrees ex_di m in_main 1 ex_mainframe 10 n_b 1 true 1 ex_mainframe 1 (CI 4) ex_in_frame P1
           eq_refl eq_refl eq_refl ltac:(lia) eq_refl ltac:(lia) eq_refl eq_refl).
Qed.

Example ex_element : forall m s1 rest,
  heap s1 = heap in_main -> stack s1 = CRef 1 4 :: CL 0 :: CL 2 :: rest ->
  dbg_print ex_di in_main (ELv n_arr [ilit 2; ilit 0] []) = DVal (PInt 20) /\
  exec m (IArridx 2) s1 = R tt (set_stack s1 (CRef 1 13 :: rest)).
Proof.
  intros m s1 rest Hh Hst.
  assert (P1 : not_const ex_di 10 n_arr) by (split; reflexivity).
  assert (P2 : has_header (s_cells ex_mainframe) 4 1 [(1, 2); (0, 1)]).
  { split; [reflexivity | split; [reflexivity|]].
    intros [|[|[|k]]] lb ub [= <- <-]; split; reflexivity. }
  assert (P3 : Forall (fun b : Z * Z => fst b <= snd b) [(1, 2); (0, 1)]) by (repeat constructor; discriminate).
  destruct (element_agrees_in_segment ex_di m in_main 1 ex_mainframe 10 n_arr [(1, 2); (0, 1)] 2 4 1
              [(1, 2); (0, 1)] [2; 0] 13 (CL 20)
              (local_var_intro ex_in_frame P1 eq_refl eq_refl eq_refl ltac:(lia) eq_refl)
              P2 ltac:(discriminate) P3 ltac:(lia) ltac:(discriminate) eq_refl eq_refl eq_refl) as [H1 H2].
  split; [exact H1 | apply (H2 s1 rest Hh Hst)].
Qed.

Example ex_int_binop :
  exists cell, dbg_print ex_di in_main (EBin OMul (lv n_a) (lv n_b)) = DVal (PInt 12) /\
               rt_eval (CBin OMul (CNum 1 (PInt 3)) (CNum 1 (PInt 4))) = RVal cell /\ pv_of cell = PInt 12.
Proof.
  exists (CI 12). vm_compute. repeat split; reflexivity.
Qed.
