(* Digit-string lemmas for C19: how nat_digits, Python's fixed-point format
   (py_fixed), thousands grouping (group3) and int -> float (of_Z) relate to
   the arithmetic definitions of the specification (frac_digits, int_grouped).
   of_Z_value also serves Props/C16.v. *)
From Coq Require Import ZArith List Bool Lia ZifyBool.
From QV Require Import Sx Strs Fl Dec Using UsingSpec.
Import ListNotations.
Open Scope Z_scope.

Lemma pow_nat_pos b n : 0 < b -> 0 < b ^ Z.of_nat n.
Proof. intro H. apply Z.pow_pos_nonneg; lia. Qed.

(* fuel counted in binary digits lasts for division by any d >= 2 *)
Lemma fuel_step f z d : 2 <= d -> 0 <= z < 2 ^ Z.of_nat (S (S f)) ->
  0 <= z / d < 2 ^ Z.of_nat (S f).
Proof.
  intros Hd [Hz Hlt]. rewrite (Nat2Z.inj_succ (S f)), Z.pow_succ_r in Hlt by lia.
  split; [apply Z.div_pos | apply Z.div_lt_upper_bound]; nia.
Qed.

Lemma digits_fuel_indep : forall f1 f2 z acc,
  0 <= z < 2 ^ Z.of_nat (S f1) -> z < 2 ^ Z.of_nat (S f2) ->
  digits_fuel f1 z acc = digits_fuel f2 z acc.
Proof.
  induction f1 as [|f1 IH]; destruct f2 as [|f2]; intros z acc H1 H2;
    cbn [digits_fuel]; try reflexivity.
  all: destruct (Z.ltb_spec z 10); [reflexivity|].
  all: try (change (2 ^ Z.of_nat 1) with 2 in *; lia).
  apply IH; apply fuel_step; lia.
Qed.

Lemma log2_fuel z : 0 <= z -> z < 2 ^ Z.of_nat (S (Z.to_nat (Z.log2 z))).
Proof.
  intro Hz. rewrite Nat2Z.inj_succ, Z2Nat.id by apply Z.log2_nonneg.
  destruct (Z.eq_dec z 0) as [->|Hn]; [reflexivity|].
  apply Z.log2_spec; lia.
Qed.

Lemma nat_digits_fuel f z : 0 <= z < 2 ^ Z.of_nat (S f) -> digits_fuel f z [] = nat_digits z.
Proof. intro H. apply digits_fuel_indep; [exact H | apply log2_fuel, H]. Qed.

Lemma nat_digits_small z : z < 10 -> nat_digits z = [ch_0 + z].
Proof.
  intro H. unfold nat_digits. destruct (Z.to_nat (Z.log2 z)); cbn [digits_fuel]; [reflexivity|].
  destruct (Z.ltb_spec z 10); [reflexivity | lia].
Qed.

Lemma nat_digits_step z : 10 <= z -> nat_digits z = nat_digits (z / 10) ++ [ch_0 + z mod 10].
Proof.
  intro H. unfold nat_digits at 1.
  pose proof (log2_fuel z ltac:(lia)) as Hlt.
  destruct (Z.to_nat (Z.log2 z)) as [|f].
  - change (2 ^ Z.of_nat 1) with 2 in Hlt. lia.
  - cbn [digits_fuel]. destruct (Z.ltb_spec z 10); [lia|].
    rewrite digits_fuel_app. f_equal.
    apply nat_digits_fuel, fuel_step; lia.
Qed.

Lemma nat_digits_nonempty z : nat_digits z <> [].
Proof.
  destruct (Z.ltb_spec z 10).
  - now rewrite nat_digits_small.
  - rewrite nat_digits_step by assumption. now destruct (nat_digits (z / 10)).
Qed.

Lemma frac_digits_length k r : length (frac_digits k r) = k.
Proof.
  revert r; induction k as [|k IH]; intro r; cbn [frac_digits]; [reflexivity|].
  rewrite app_length, IH. apply Nat.add_1_r.
Qed.

Lemma repeat_snoc {A} (x : A) n : repeat x n ++ [x] = x :: repeat x n.
Proof. symmetry. apply repeat_cons. Qed.

Lemma pow10_S k : 10 ^ Z.of_nat (S k) = 10 * 10 ^ Z.of_nat k.
Proof. rewrite Nat2Z.inj_succ. apply Z.pow_succ_r, Nat2Z.is_nonneg. Qed.

Lemma pad_zeros_id n s : n <= Z.of_nat (length s) -> pad_zeros n s = s.
Proof.
  intro H. unfold pad_zeros.
  now replace (Z.to_nat (n - Z.of_nat (length s))) with 0%nat by lia.
Qed.

Lemma pad_zeros_snoc n s c : pad_zeros (n + 1) (s ++ [c]) = pad_zeros n s ++ [c].
Proof.
  unfold pad_zeros. rewrite app_length, app_assoc. cbn [length].
  now replace (n + 1 - Z.of_nat (length s + 1)) with (n - Z.of_nat (length s)) by lia.
Qed.

(* zero-padding peels off the last digit like nat_digits_step, also when D
   has one digit only: then the digit in front of it is a padding zero *)
Lemma pad_digits_step n D : 1 <= n -> 0 <= D ->
  pad_zeros (n + 1) (nat_digits D) = pad_zeros n (nat_digits (D / 10)) ++ [ch_0 + D mod 10].
Proof.
  intros Hn HD. destruct (Z_lt_le_dec D 10) as [Hs|Hs].
  - rewrite Z.div_small, Z.mod_small, !nat_digits_small by lia.
    etransitivity; [exact (pad_zeros_snoc n [] _)|]. f_equal.
    unfold pad_zeros. change (ch_0 + 0) with ch_0. cbn [length]. rewrite repeat_snoc, app_nil_r.
    now replace (Z.to_nat (n - Z.of_nat 0)) with (S (Z.to_nat (n - Z.of_nat 1))) by lia.
  - rewrite nat_digits_step by exact Hs. apply pad_zeros_snoc.
Qed.

Lemma div_mod_10 D p : 0 < p ->
  D / (10 * p) = D / 10 / p /\
  D mod (10 * p) / 10 = (D / 10) mod p /\ (D mod (10 * p)) mod 10 = D mod 10.
Proof.
  intro Hp. pose proof (Z.mod_pos_bound D 10 eq_refl) as Hx.
  rewrite Z.div_div, Z.rem_mul_r, (Z.mul_comm 10 (_ mod p)), Z.div_add, Z.mod_add by lia.
  now rewrite (Z.div_small (D mod 10)), (Z.mod_small (D mod 10)) by exact Hx.
Qed.

Lemma pad_digits_split : forall (k : nat) D, 0 <= D ->
  pad_zeros (Z.of_nat k + 1) (nat_digits D) =
  nat_digits (D / 10 ^ Z.of_nat k) ++ frac_digits k (D mod 10 ^ Z.of_nat k).
Proof.
  induction k as [|k IH]; intros D HD.
  - change (10 ^ Z.of_nat 0) with 1. rewrite Z.div_1_r. cbn [frac_digits]. rewrite app_nil_r.
    apply pad_zeros_id. pose proof (nat_digits_nonempty D).
    destruct (nat_digits D); [congruence | cbn [length]; lia].
  - rewrite pow10_S. cbn [frac_digits].
    destruct (div_mod_10 D _ (pow_nat_pos 10 k eq_refl)) as (-> & -> & ->).
    rewrite app_assoc, <- IH by (apply Z.div_pos; lia).
    rewrite Nat2Z.inj_succ. apply pad_digits_step; lia.
Qed.

Lemma frac_digits_zero k : frac_digits k 0 = repeat ch_0 k.
Proof.
  induction k as [|k IH]; cbn [frac_digits]; [reflexivity|].
  change (0 / 10) with 0. rewrite IH. apply repeat_snoc.
Qed.

Lemma nat_digits_length_ge z (k : nat) : 10 ^ Z.of_nat k <= z -> (S k <= length (nat_digits z))%nat.
Proof.
  revert z; induction k as [|k IH]; intros z H.
  - pose proof (nat_digits_nonempty z). destruct (nat_digits z); [congruence | cbn [length]; lia].
  - rewrite pow10_S in H. pose proof (pow_nat_pos 10 k eq_refl).
    rewrite nat_digits_step, app_length by lia. cbn [length].
    specialize (IH (z / 10) ltac:(apply Z.div_le_lower_bound; lia)). lia.
Qed.

Lemma nat_digits_split3 z : 1000 <= z ->
  nat_digits z = nat_digits (z / 1000) ++ frac_digits 3 (z mod 1000).
Proof.
  intro H. etransitivity; [|exact (pad_digits_split 3 z ltac:(lia))].
  symmetry. apply pad_zeros_id. pose proof (nat_digits_length_ge z 3 H). lia.
Qed.

Lemma group3_rev_3 c r : group3_rev (c :: r) 3 = ch_comma :: group3_rev (c :: r) 0.
Proof. reflexivity. Qed.

Lemma group3_snoc3 X a b c : X <> [] ->
  group3 (X ++ [a; b; c]) = group3 X ++ [ch_comma; a; b; c].
Proof.
  intro HX. unfold group3. rewrite rev_app_distr. cbn [rev app].
  destruct (rev X) as [|x R] eqn:E.
  - apply (f_equal (@rev Z)) in E. rewrite rev_involutive in E. contradiction.
  - cbn [group3_rev rev]. now rewrite <- !app_assoc.
Qed.

Lemma group3_short_1 a : group3 [a] = [a].
Proof. reflexivity. Qed.
Lemma group3_short_2 a b : group3 [a; b] = [a; b].
Proof. reflexivity. Qed.
Lemma group3_short_3 a b c : group3 [a; b; c] = [a; b; c].
Proof. reflexivity. Qed.

Lemma group3_lt_1000 z : 0 <= z < 1000 -> group3 (nat_digits z) = nat_digits z.
Proof.
  intro H. destruct (Z_lt_le_dec z 10).
  - rewrite nat_digits_small by lia. apply group3_short_1.
  - rewrite nat_digits_step by lia. destruct (Z_lt_le_dec z 100).
    + rewrite nat_digits_small by (Z.to_euclidean_division_equations; lia). apply group3_short_2.
    + rewrite nat_digits_step, nat_digits_small by (Z.to_euclidean_division_equations; lia).
      apply group3_short_3.
Qed.

Lemma group3_int_grouped : forall fuel z, 0 <= z < 2 ^ Z.of_nat (S fuel) ->
  group3 (nat_digits z) = int_grouped fuel z.
Proof.
  induction fuel as [|f IH]; intros z Hz; cbn [int_grouped].
  - change (2 ^ Z.of_nat 1) with 2 in Hz. apply group3_lt_1000. lia.
  - destruct (Z.ltb_spec z 1000) as [Hs|Hs]; [apply group3_lt_1000; lia|].
    rewrite nat_digits_split3 by exact Hs. cbn [frac_digits app].
    rewrite group3_snoc3 by apply nat_digits_nonempty.
    rewrite IH by (apply fuel_step; lia). reflexivity.
Qed.

Lemma group3_spec z : 0 <= z ->
  group3 (nat_digits z) = int_grouped (Z.to_nat (Z.log2 z)) z.
Proof. intro Hz. apply group3_int_grouped. split; [exact Hz | apply log2_fuel, Hz]. Qed.

Lemma span_digits_stop ip rest c :
  forallb is_digit ip = true -> is_digit c = false ->
  span_digits (ip ++ c :: rest) = (ip, c :: rest).
Proof.
  intros H Hc. induction ip as [|d ip IH]; cbn [span_digits app].
  - now rewrite Hc.
  - cbn [forallb] in H. apply andb_true_iff in H as [Hd Hr]. now rewrite Hd, (IH Hr).
Qed.

Lemma group_int_part_point ip fp :
  forallb is_digit ip = true ->
  group_int_part (ip ++ [ch_dot] ++ fp) = group3 ip ++ [ch_dot] ++ fp.
Proof.
  intro H. unfold group_int_part. cbn [app].
  now rewrite span_digits_stop by (exact H || reflexivity).
Qed.

(* Python's rounding of N / p (half to even, remainder by subtraction) is
   the specification's *)
Lemma half_even_rne N p : 0 < p ->
  (let d := N / p in
   let r := N - d * p in
   if 2 * r >? p then d + 1 else if 2 * r <? p then d
   else if Z.odd d then d + 1 else d) = rne_div N p.
Proof.
  intro Hp. unfold rne_div. cbv zeta.
  replace (N - N / p * p) with (N mod p) by (rewrite Z.mod_eq; lia).
  rewrite Z.gtb_ltb, <- Z.negb_odd.
  destruct (p <? 2 * (N mod p)) eqn:E1, (2 * (N mod p) <? p) eqn:E2; try reflexivity; [lia|].
  now destruct (Z.odd (N / p)).
Qed.

Lemma rne_div_0 p : 0 < p -> rne_div 0 p = 0.
Proof.
  intro Hp. unfold rne_div. rewrite Zdiv_0_l, Zmod_0_l.
  destruct (Z.ltb_spec (2 * 0) p); [reflexivity | lia].
Qed.

Lemma rne_div_nonneg N p : 0 <= N -> 0 < p -> 0 <= rne_div N p.
Proof.
  intros HN Hp. unfold rne_div. pose proof (Z.div_pos N p HN Hp).
  destruct (_ <? _); [assumption|]. destruct (_ <? _); [lia|]. destruct (Z.even _); lia.
Qed.

(* the integer the digits of '{:.kf}'.format(x) spell: |x| * 10^k rounded half-even *)
Definition fixed_scaled (m e k : Z) : Z :=
  let '(N, q) := if m <=? 0 then (0, 0) else exact_dec m e in
  if 0 <=? q + k then N * 10 ^ (q + k) else rne_div N (10 ^ (- (q + k))).

Lemma py_fixed_unfold n m e prec :
  py_fixed (FFin n m e) prec =
  let ds := pad_zeros (prec + 1) (nat_digits (fixed_scaled m e prec)) in
  let ip := firstn (length ds - Z.to_nat prec) ds in
  let fp := skipn (length ds - Z.to_nat prec) ds in
  if prec <=? 0 then ip else ip ++ [ch_dot] ++ fp.
Proof.
  unfold py_fixed, fixed_scaled.
  destruct (if m <=? 0 then (0, 0) else exact_dec m e) as [N q]. cbv zeta.
  rewrite Z.geb_leb. destruct (Z.leb_spec 0 (q + prec)); [reflexivity|].
  rewrite (half_even_rne N) by (apply Z.pow_pos_nonneg; lia). reflexivity.
Qed.

Lemma exact_dec_nonneg m e : 0 <= m -> 0 <= fst (exact_dec m e).
Proof.
  intro Hm. unfold exact_dec. destruct (e >=? 0); cbn [fst].
  - now apply Z.shiftl_nonneg.
  - apply Z.mul_nonneg_nonneg; [exact Hm | apply Z.pow_nonneg; lia].
Qed.

Lemma fixed_scaled_nonpos m e k : m <= 0 -> fixed_scaled m e k = 0.
Proof.
  intro Hm. unfold fixed_scaled. destruct (Z.leb_spec m 0); [|lia].
  destruct (Z.leb_spec 0 (0 + k)); [apply Z.mul_0_l|].
  apply rne_div_0, Z.pow_pos_nonneg; lia.
Qed.

Lemma fixed_scaled_nonneg m e k : 0 <= fixed_scaled m e k.
Proof.
  destruct (Z_le_gt_dec m 0) as [Hm|Hm]; [rewrite fixed_scaled_nonpos; lia|].
  unfold fixed_scaled. destruct (Z.leb_spec m 0); [lia|].
  pose proof (exact_dec_nonneg m e ltac:(lia)) as HN.
  destruct (exact_dec m e) as [N q]. cbn [fst] in HN.
  destruct (Z.leb_spec 0 (q + k)).
  - apply Z.mul_nonneg_nonneg; [exact HN|]. apply Z.pow_nonneg; lia.
  - apply rne_div_nonneg; [exact HN|]. apply Z.pow_pos_nonneg; lia.
Qed.

Lemma fixed_scaled_spec n m e k :
  scaled_round (UFlt (FFin n m e)) k = Some (fixed_scaled m e k).
Proof.
  cbn [scaled_round]. destruct (Z.leb_spec m 0) as [Hm|Hm].
  - now rewrite fixed_scaled_nonpos.
  - unfold fixed_scaled. destruct (Z.leb_spec m 0); [lia|].
    now destruct (exact_dec m e).
Qed.

Lemma py_fixed_digits n m e k : 1 <= k ->
  py_fixed (FFin n m e) k =
  nat_digits (fixed_scaled m e k / 10 ^ k) ++ [ch_dot]
  ++ frac_digits (Z.to_nat k) (fixed_scaled m e k mod 10 ^ k).
Proof.
  intro Hk. rewrite py_fixed_unfold. cbv zeta.
  pose proof (pad_digits_split (Z.to_nat k) _ (fixed_scaled_nonneg m e k)) as P.
  rewrite Z2Nat.id in P by lia. rewrite P.
  set (A := nat_digits _). set (B := frac_digits _ _).
  assert (HB : length B = Z.to_nat k) by apply frac_digits_length.
  replace (length (A ++ B) - Z.to_nat k)%nat with (length A + 0)%nat
    by (rewrite app_length; lia).
  rewrite firstn_app_2, skipn_app, Nat.add_0_r, Nat.sub_diag, skipn_all, firstn_O, app_nil_r.
  destruct (Z.leb_spec k 0); [lia | reflexivity].
Qed.

Lemma strip_pos_spec p : forall e, 0 <= e ->
  let '(p', e') := strip_pos p e in Z.pos p' * 2 ^ e' = Z.pos p * 2 ^ e /\ e <= e'.
Proof.
  induction p as [p IH|p IH|]; intros e He; cbn [strip_pos]; [easy | | easy].
  specialize (IH (e + 1) ltac:(lia)). destruct (strip_pos p (e + 1)) as [p' e'].
  rewrite Z.pow_add_r in IH by lia. lia.
Qed.

Lemma bits_bounds a n : 0 < a < 2 ^ n -> 0 < bits a <= n.
Proof.
  intros [H0 H1]. unfold bits. destruct (Z.leb_spec a 0); [lia|].
  pose proof (Z.log2_nonneg a). apply Z.log2_lt_pow2 in H1; lia.
Qed.

Lemma round_gen_fits prec emin emax neg m e sticky :
  0 < m -> bits m <= prec -> emin <= e -> bits m + e <= emax ->
  round_gen prec emin emax neg m e sticky = norm neg m e.
Proof.
  intros Hm Hb He Hx. unfold round_gen. cbv zeta.
  replace (m <=? 0) with false by lia.
  replace (Z.max (e + bits m - prec) emin <=? e) with true by lia.
  now replace (bits m + e >? emax) with false by lia.
Qed.

Lemma of_Z_exact z : Z.abs z < 2 ^ 53 -> of_Z z = norm (z <? 0) (Z.abs z) 0.
Proof.
  intro Hb. unfold of_Z, round64. destruct (Z.eqb_spec z 0) as [->|Hn]; [reflexivity|].
  pose proof (bits_bounds (Z.abs z) 53 ltac:(lia)). apply round_gen_fits; lia.
Qed.

Lemma of_Z_value z : Z.abs z < 2 ^ 53 ->
  exists m e, of_Z z = FFin (z <? 0) m e /\ 0 <= e /\ m * 2 ^ e = Z.abs z.
Proof.
  intro Hb. rewrite of_Z_exact by exact Hb. unfold norm.
  destruct (Z.abs z) as [|p|p] eqn:E.
  - exists 0, 0. repeat split; lia.
  - pose proof (strip_pos_spec p 0 ltac:(lia)) as H. destruct (strip_pos p 0) as [p' e'].
    exists (Z.pos p'), e'. repeat split; lia.
  - lia.
Qed.

Lemma fixed_scaled_int m e k : 0 <= m -> 0 <= e -> 0 <= k ->
  fixed_scaled m e k = m * 2 ^ e * 10 ^ k.
Proof.
  intros Hm He Hk. destruct (Z.eq_dec m 0) as [->|Hn]; [now apply fixed_scaled_nonpos|].
  unfold fixed_scaled, exact_dec.
  destruct (Z.leb_spec m 0); [lia|]. destruct (Z.geb_spec e 0); [|lia].
  destruct (Z.leb_spec 0 (0 + k)); [|lia]. now rewrite Z.shiftl_mul_pow2.
Qed.

(* format() of an int goes through float; below 2^53 nothing is lost *)
Lemma of_Z_scaled a k : 0 <= a < 2 ^ 53 -> 0 <= k ->
  exists m e, of_Z a = FFin false m e /\ fixed_scaled m e k = a * 10 ^ k.
Proof.
  intros Ha Hk. destruct (of_Z_value a) as (m & e & E & He & Hv); [lia|].
  rewrite Z.abs_eq in Hv by lia. replace (a <? 0) with false in E by lia.
  exists m, e. split; [exact E|]. subst a.
  pose proof (Z.pow_pos_nonneg 2 e). apply fixed_scaled_int; nia.
Qed.
