(* add_node / finalize: where the offsets of the final table come from
   (property C11).  Continues Proofs/DebugMapProofs.v. *)
From Coq Require Import ZArith List Bool Lia.
From QV Require Import DebugMap DebugMapProofs.
Import ListNotations.
Open Scope Z_scope.

Definition is_block_node (n : node) : bool :=
  match nk n with KBlock _ _ | KRoutine _ _ => true | _ => false end.

Definition stmts_of (ns : list cnode) : list rec :=
  flat_map (fun x : cnode => let '(n, s, e) := x in
              match nk n with KStmt => [mkRec (nid n) s e] | _ => [] end) ns.
Definition others_of (ns : list cnode) : list rec :=
  flat_map (fun x : cnode => let '(n, s, e) := x in
              match nk n with KOther => [mkRec (nid n) s e] | _ => [] end) ns.
Definition blocks_of (ns : list cnode) : list cnode :=
  filter (fun x : cnode => is_block_node (fst (fst x))) ns.

Lemma stmts_of_app a b : stmts_of (a ++ b) = stmts_of a ++ stmts_of b.
Proof. apply flat_map_app. Qed.
Lemma others_of_app a b : others_of (a ++ b) = others_of a ++ others_of b.
Proof. apply flat_map_app. Qed.
Lemma blocks_of_app a b : blocks_of (a ++ b) = blocks_of a ++ blocks_of b.
Proof. apply filter_app. Qed.

Lemma in_stmts_of ns r :
  In r (stmts_of ns) <-> exists n s e, In (n, s, e) ns /\ nk n = KStmt /\ r = mkRec (nid n) s e.
Proof.
  split; intros H.
  - apply in_flat_map in H. destruct H as ([[n s] e] & Hin & Hr).
    destruct (nk n) eqn:K; try contradiction. destruct Hr as [<-|[]]. eauto 6.
  - destruct H as (n & s & e & Hin & K & ->). apply in_flat_map. exists (n, s, e).
    split; [exact Hin|]. rewrite K. left. reflexivity.
Qed.

Lemma in_others_of ns r :
  In r (others_of ns) -> exists n s e, In (n, s, e) ns /\ r = mkRec (nid n) s e.
Proof.
  intros H. apply in_flat_map in H. destruct H as ([[n s] e] & Hin & Hr).
  destruct (nk n) eqn:K; try contradiction. destruct Hr as [<-|[]]. eauto 6.
Qed.

Lemma in_blocks_of ns n s e :
  In (n, s, e) (blocks_of ns) <-> In (n, s, e) ns /\ is_block_node n = true.
Proof. apply filter_In. Qed.

Lemma add_nodes_snoc ns x : add_nodes (ns ++ [x]) = add_node (add_nodes ns) x.
Proof. apply fold_left_app. Qed.

Lemma add_nodes_lists ns :
  d_stmts (add_nodes ns) = stmts_of ns /\
  d_blocks (add_nodes ns) = blocks_of ns /\
  d_others (add_nodes ns) = others_of ns.
Proof.
  induction ns as [|[[n s] e] ns (A & B & C)] using rev_ind; [auto|].
  rewrite add_nodes_snoc, stmts_of_app, blocks_of_app, others_of_app, <- A, <- B, <- C.
  unfold add_node, stmts_of, blocks_of, others_of, is_block_node. simpl.
  destruct (nk n); simpl; rewrite ?app_nil_r; auto.
Qed.

Lemma in_dict_set k v d k' v' :
  In (k', v') (dict_set k v d) -> (k' = k /\ v' = v) \/ In (k', v') d.
Proof.
  induction d as [|[k0 v0] d IH]; simpl.
  - intros [[= <- <-]|[]]. auto.
  - destruct (Z.eqb_spec k0 k) as [->|N]; simpl.
    + intros [[= <- <-]|H]; auto.
    + intros [H|H]; [auto|]. destruct (IH H); auto.
Qed.

(* an entry survives the assignment unless it is overwritten with another value *)
Lemma dict_set_in k v d k' v' :
  (k' = k -> v' = v) -> In (k', v') ((k, v) :: d) -> In (k', v') (dict_set k v d).
Proof.
  intros Hv. induction d as [|[k0 v0] d IH]; simpl; [tauto|].
  destruct (Z.eqb_spec k0 k) as [->|N].
  - intros [H|[H|H]]; [left; exact H | left | right; exact H].
    injection H as <- <-. rewrite (Hv eq_refl). reflexivity.
  - intros [H|[H|H]]; [right; apply IH; left; exact H | left; exact H | right; apply IH; right; exact H].
Qed.

Lemma routines_from_nodes ns k s e :
  In (k, (s, e)) (d_routines (add_nodes ns)) -> exists n, In (n, s, e) ns /\ nid n = k.
Proof.
  induction ns as [|[[m s0] e0] ns IH] using rev_ind; [intros []|].
  rewrite add_nodes_snoc. intros H.
  assert (D : In (k, (s, e)) (d_routines (add_nodes ns)) \/ (k, (s, e)) = (nid m, (s0, e0))).
  { unfold add_node in H. destruct (nk m); simpl in H; auto.
    apply in_dict_set in H. destruct H as [[-> ->]|H]; auto. }
  destruct D as [D|D].
  - destruct (IH D) as (n & Hin & Hk). exists n. split; [apply in_or_app; left; exact Hin | exact Hk].
  - inversion D; subst. exists m. split; [apply in_elt | reflexivity].
Qed.

(* a later node of the same identity overwrites the dictionary entry: hence
   the hypothesis that the identity is recorded with one range only *)
Lemma routine_recorded ns n s e a b :
  nk n = KRoutine a b -> In (n, s, e) ns ->
  (forall m s' e', In (m, s', e') ns -> nid m = nid n -> s' = s /\ e' = e) ->
  In (nid n, (s, e)) (d_routines (add_nodes ns)).
Proof.
  intros K. induction ns as [|[[m s1] e1] ns IH] using rev_ind; intros Hin U; [contradiction|].
  rewrite add_nodes_snoc.
  assert (Um : nid m = nid n -> s1 = s /\ e1 = e).
  { apply U, in_elt. }
  apply in_app_or in Hin. destruct Hin as [Hin|[Hin|[]]].
  - assert (R : In (nid n, (s, e)) (d_routines (add_nodes ns))).
    { apply IH; [exact Hin|]. intros m' s' e' H'. apply U, in_or_app. left. exact H'. }
    unfold add_node. destruct (nk m); simpl; auto.
    apply dict_set_in; [|right; exact R].
    intros E. destruct (Um (eq_sym E)) as [-> ->]. reflexivity.
  - inversion Hin; subst. unfold add_node. rewrite K. simpl.
    apply dict_set_in; [reflexivity | left; reflexivity].
Qed.

Lemma debug_map_wf l : wf_markers l ->
  debug_map l =
  DOk (d_routines (add_nodes (nodes_at 0 l)))
      (finalize (empties_at 0 l) (blocks_of (nodes_at 0 l)) (stmts_of (nodes_at 0 l)))
      (others_of (nodes_at 0 l)) (size l).
Proof.
  intros H. unfold debug_map. rewrite (run_cinit l 0 H). simpl.
  destruct (add_nodes_lists (nodes_at 0 l)) as (-> & -> & ->). reflexivity.
Qed.

Lemma in_marker_records ss es bs be empties r :
  In r (marker_records ss es bs be empties) <->
  exists a, In a empties /\ bs <= a < be /\ (r = mkRec ss bs a \/ r = mkRec es a be).
Proof.
  unfold marker_records. rewrite in_flat_map.
  split; intros (a & Ha & H); exists a; (split; [exact Ha|]);
    destruct (Z.leb_spec bs a), (Z.ltb_spec a be); simpl in *; try lia; try contradiction.
  - split; [lia|]. destruct H as [<-|[<-|[]]]; auto.
  - destruct H as (_ & [-> | ->]); auto.
Qed.

(* one iteration of finalize on a block with start/end statements ss, es: no
   record of the table is a child and the markers decide, or the two records
   are cut off at two of the children (the first and the last by start offset) *)
Lemma process_block_spec emp T n bs be ss es : block_stmts (nk n) = Some (ss, es) ->
  (process_block emp T (n, bs, be) = T ++ marker_records ss es bs be emp /\
   forall r, In r T -> is_child bs be r = false) \/
  exists c0 ck,
    (In c0 T /\ is_child bs be c0 = true) /\ (In ck T /\ is_child bs be ck = true) /\
    process_block emp T (n, bs, be) = T ++ [mkRec ss bs (r_start c0); mkRec es (r_end ck) be].
Proof.
  intros BS. unfold process_block. rewrite BS.
  destruct (filter (is_child bs be) T) as [|c cs] eqn:F.
  - left. split; [reflexivity|]. intros r Hr. destruct (is_child bs be r) eqn:C; [|reflexivity].
    assert (X : In r (filter (is_child bs be) T)) by (apply filter_In; auto).
    rewrite F in X. destruct X.
  - right. destruct (sort_ends_in r_start c cs) as [H0 Hk].
    set (children := sort_by r_start (c :: cs)) in *. rewrite <- F in H0, Hk.
    exists (hd c children), (last children c).
    split; [apply filter_In, H0|]. split; [apply filter_In, Hk | reflexivity].
Qed.

Lemma process_blocks_split empties b1 b2 stmts :
  process_blocks empties (b1 ++ b2) stmts =
  process_blocks empties b2 (process_blocks empties b1 stmts).
Proof. apply fold_left_app. Qed.

Section OffsetPred.
  Variable P : Z -> Prop.
  Definition rec_P (r : rec) := P (r_start r) /\ P (r_end r).

  Lemma process_block_P empties stmts n bs be :
    P bs -> P be -> (forall a, In a empties -> P a) ->
    (forall r, In r stmts -> rec_P r) ->
    forall r, In r (process_block empties stmts (n, bs, be)) -> rec_P r.
  Proof.
    intros Hbs Hbe He Hs r. destruct (block_stmts (nk n)) as [[ss es]|] eqn:BS.
    - destruct (process_block_spec empties stmts n bs be ss es BS)
        as [[-> _]|(c0 & ck & [H0 _] & [Hk _] & ->)];
        intros Hin; apply in_app_or in Hin; destruct Hin as [Hin|Hin]; auto.
      + apply in_marker_records in Hin. destruct Hin as (a & Ha & _ & [-> | ->]); split; simpl; auto.
      + destruct Hin as [<-|[<-|[]]]; split; simpl; auto; [apply (Hs c0 H0) | apply (Hs ck Hk)].
    - unfold process_block. rewrite BS. apply Hs.
  Qed.

  Lemma process_blocks_P empties blocks :
    (forall a, In a empties -> P a) ->
    (forall n bs be, In (n, bs, be) blocks -> P bs /\ P be) ->
    forall stmts, (forall r, In r stmts -> rec_P r) ->
    forall r, In r (process_blocks empties blocks stmts) -> rec_P r.
  Proof.
    intros He. induction blocks as [|[[n bs] be] blocks IH]; intros Hb stmts Hs; simpl; auto.
    apply IH.
    - intros. eapply Hb. right. eauto.
    - destruct (Hb n bs be (or_introl eq_refl)).
      apply process_block_P; auto.
  Qed.
End OffsetPred.

Lemma process_block_incl emp T b : incl T (process_block emp T b).
Proof.
  destruct b as [[n bs] be]. unfold process_block.
  destruct (block_stmts (nk n)) as [[ss es]|]; [|apply incl_refl].
  destruct (filter _ T); apply incl_appl, incl_refl.
Qed.

Lemma process_blocks_incl emp blocks : forall T, incl T (process_blocks emp blocks T).
Proof.
  induction blocks as [|b blocks IH]; intros T; simpl; [apply incl_refl|].
  eapply incl_tran; [apply process_block_incl | apply IH].
Qed.

(* every offset in the final table - statement records including the
   synthesised ones, routine records, other nodes - is an offset the collector
   recorded *)
Lemma table_offsets (P : Z -> Prop) l : wf_markers l ->
  (forall n s e, In (n, s, e) (nodes_at 0 l) -> P s /\ P e) ->
  (forall a, In a (empties_at 0 l) -> P a) ->
  forall routines stmts others sz, debug_map l = DOk routines stmts others sz ->
  sz = size l /\
  (forall r, In r stmts -> rec_P P r) /\
  (forall k s e, In (k, (s, e)) routines -> P s /\ P e) /\
  (forall r, In r others -> rec_P P r).
Proof.
  intros H A B routines stmts others sz. rewrite (debug_map_wf l H).
  intros [= <- <- <- <-].
  split; [reflexivity|]. split; [|split].
  - intros r Hr. apply in_sort_by in Hr. revert r Hr.
    apply (process_blocks_P P); [exact B| |].
    + intros n bs be Hin. apply in_blocks_of in Hin. apply (A n), Hin.
    + intros r Hr. apply in_stmts_of in Hr. destruct Hr as (n & s & e & Hin & _ & ->).
      apply (A n), Hin.
  - intros k s e Hin. apply routines_from_nodes in Hin. destruct Hin as (n & Hin & _).
    apply (A n), Hin.
  - intros r Hr. apply in_others_of in Hr. destruct Hr as (n & s & e & Hin & ->).
    apply (A n), Hin.
Qed.

(* finalize only adds records: every collected statement is in the table *)
Lemma stmt_in_table l : wf_markers l ->
  forall routines stmts others sz, debug_map l = DOk routines stmts others sz ->
  forall n s e, In (n, s, e) (nodes_at 0 l) -> nk n = KStmt -> In (mkRec (nid n) s e) stmts.
Proof.
  intros W routines stmts others sz. rewrite (debug_map_wf l W). intros [= _ <- _ _] n s e Hin K.
  apply in_sort_by, process_blocks_incl, in_stmts_of. exists n, s, e. auto.
Qed.
