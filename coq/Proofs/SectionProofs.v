(* Proofs about the section-level module codec of Models/Codec.v. *)
From Coq Require Import ZArith List Bool Lia ZifyBool.
From QV Require Import Sx Strs Fl Machine Cpu Instrs Codec CodecProofs.
Import ListNotations.
Open Scope Z_scope.

Lemma len_be16 z : len (be16 z) = 2. Proof. reflexivity. Qed.
Lemma len_be32 z : len (be32 z) = 4. Proof. reflexivity. Qed.

Lemma index_from_spec c l d : forall i j,
  index_from c l i = Some j -> i <= j /\ nth (Z.to_nat (j - i)) l d = c.
Proof.
  induction l as [|x r IH]; intros i j H; simpl in H; [discriminate|].
  destruct (x =? c) eqn:E.
  - injection H as <-. rewrite Z.sub_diag. split; [lia | simpl; lia].
  - apply IH in H as (H1 & H2). split; [lia|].
    replace (Z.to_nat (j - i)) with (S (Z.to_nat (j - (i + 1)))) by lia. exact H2.
Qed.

Lemma nth_default_irrel {A} (l : list A) n d d' : (n < length l)%nat -> nth n l d = nth n l d'.
Proof. apply nth_indep. Qed.

Lemma cp_dec_enc c b : cp_enc c = Some b -> cp_dec b = c.
Proof.
  unfold cp_enc, cp_dec, cp437_decode, in_range. destruct (_ && _) eqn:E.
  - intros [= <-]. replace (c <? 128) with true by lia. reflexivity.
  - destruct (index_from c cp437_upper 0) as [i|] eqn:I; [|discriminate]. intros H.
    assert (b = 128 + i) as -> by congruence.
    apply (index_from_spec _ _ (128 + i)) in I as (I1 & I2).
    replace (128 + i <? 128) with false by lia.
    replace (128 + i - 128) with (i - 0) by lia. exact I2.
Qed.

Lemma enc_text_inv s bs : enc_text s = EOk bs -> map cp_dec bs = s /\ len bs = len s.
Proof.
  unfold enc_text. destruct (map_opt cp_enc s) as [v|] eqn:H; [|discriminate]. intros [= <-].
  revert v H. induction s as [|c r IH]; intros v H; simpl in H.
  - injection H as <-. split; reflexivity.
  - destruct (cp_enc c) as [b|] eqn:E; [|discriminate].
    destruct (map_opt cp_enc r) as [vr|] eqn:Er; [|discriminate].
    injection H as <-. destruct (IH _ eq_refl) as (I1 & I2).
    simpl. rewrite (cp_dec_enc _ _ E), I1. rewrite !len_cons, I2. split; reflexivity.
Qed.

Definition sized (e : eres (list Z)) (n : Z) : Prop := exists bs, e = EOk bs /\ len bs = n.

Lemma enc_text_ok s : text_ok s -> sized (enc_text s) (len s).
Proof.
  intros T. assert (exists v, map_opt cp_enc s = Some v) as (v & E).
  { induction T as [|c r Hc Hr (v & IH)]; simpl; [eauto|].
    destruct (cp_enc c); [|congruence]. rewrite IH. eauto. }
  assert (enc_text s = EOk v) as Ev by (unfold enc_text; now rewrite E).
  exists v. split; [exact Ev | apply (enc_text_inv _ _ Ev)].
Qed.

Lemma cat_sized a b n m :
  sized a n -> sized b m -> sized (ebind a (fun x => ebind b (fun y => EOk (x ++ y)))) (n + m).
Proof.
  intros (x & -> & <-) (y & -> & <-). exists (x ++ y). split; [reflexivity | apply len_app].
Qed.

Lemma ebind_inv {A B} (x : eres A) (f : A -> eres B) b :
  ebind x f = EOk b -> exists a, x = EOk a /\ f a = EOk b.
Proof. destruct x; simpl; try discriminate. eauto. Qed.

(* a block behind its 16-bit count: the shape of a literal, a data item, a data
   part and the data section; [lim] is what the count's pack format admits *)
Lemma counted_inv lim n (e : eres (list Z)) a :
  (if lim <? n then EStructError else ebind e (fun bs => EOk (be16 n ++ bs))) = EOk a ->
  n <= lim /\ exists bs, e = EOk bs /\ a = be16 n ++ bs.
Proof.
  destruct (lim <? n) eqn:E; [discriminate|]. intros H.
  apply ebind_inv in H as (bs & Hb & [= <-]). split; [lia | eauto].
Qed.

Lemma counted_sized lim n e k :
  n <= lim -> sized e k ->
  sized (if lim <? n then EStructError else ebind e (fun bs => EOk (be16 n ++ bs))) (2 + k).
Proof.
  intros L (bs & -> & <-). replace (lim <? n) with false by lia.
  exists (be16 n ++ bs). split; [reflexivity | apply len_app].
Qed.

Lemma take_app (v b : list Z) size :
  len v = size -> take size (v ++ b) = (v, b, false).
Proof.
  intros <-. unfold take. cbv zeta. rewrite firstn_len_app, skipn_len_app.
  replace (len v <? len v) with false by lia. reflexivity.
Qed.

Lemma parse_literals_step f bs size r :
  u16 bs = Some (size, r) ->
  parse_literals (S f) bs =
  let '(v, r', over) := take size r in
  if over then PExit else pbind (parse_literals f r') (fun ls => POk (map cp_dec v :: ls)).
Proof. intros U. destruct bs; [discriminate U|]. cbn [parse_literals]. rewrite U. reflexivity. Qed.

Lemma parse_literals_ok ls : forall bs fuel,
  enc_literals ls = EOk bs -> (length bs <= fuel)%nat -> parse_literals fuel bs = POk ls.
Proof.
  induction ls as [|s r IH]; intros bs fuel H L.
  - simpl in H. injection H as <-. destruct fuel; reflexivity.
  - simpl in H. apply ebind_inv in H as (a & Ha & H). apply ebind_inv in H as (b & Hb & [= <-]).
    apply counted_inv in Ha as (_ & v & Hv & ->). apply enc_text_inv in Hv as (Hv & Lv).
    rewrite <- app_assoc in L |- *. rewrite !app_length in L. simpl in L.
    destruct fuel as [|f]; [lia|].
    rewrite (parse_literals_step _ _ _ _ (u16_be16 _ _)), (take_app v b _ Lv), (IH b f Hb), Hv
      by lia.
    reflexivity.
Qed.

Lemma enc_literals_len ls :
  Forall (fun s => len s <= 65535 /\ text_ok s) ls ->
  sized (enc_literals ls) (sumZ (map lit_size ls)).
Proof.
  induction 1 as [|s r (Hs & Ht) Hr IH]; [exists []; split; reflexivity|].
  exact (cat_sized _ _ _ _ (counted_sized _ _ _ _ Hs (enc_text_ok _ Ht)) IH).
Qed.

Lemma parse_item_ok it a rest :
  enc_item it = EOk a -> parse_item (a ++ rest, false) = POk (it, (rest, false)).
Proof.
  destruct it as [|s]; intros H; simpl in H.
  - injection H as <-. reflexivity.
  - apply counted_inv in H as (Ls & v & Hv & ->). apply enc_text_inv in Hv as (Hv & Lv).
    pose proof (len_nonneg s).
    unfold parse_item. rewrite <- app_assoc, i16_be16.
    replace (len s >=? 32768) with false by lia. replace (len s <? 0) with false by lia.
    rewrite (take_app v rest _ Lv), Hv. reflexivity.
Qed.

Lemma parse_items_ok its : forall a rest,
  enc_items its = EOk a ->
  parse_items (length its) (a ++ rest, false) = POk (its, (rest, false)).
Proof.
  induction its as [|it r IH]; intros a rest H; simpl in H.
  - injection H as <-. reflexivity.
  - apply ebind_inv in H as (x & Hx & H). apply ebind_inv in H as (y & Hy & [= <-]).
    cbn [length parse_items]. rewrite <- app_assoc, (parse_item_ok _ _ _ Hx). cbn [pbind].
    rewrite (IH _ _ Hy). reflexivity.
Qed.

Lemma parse_part_ok p a rest :
  enc_part p = EOk a -> parse_part (a ++ rest, false) = POk (p, (rest, false)).
Proof.
  intros H. apply counted_inv in H as (_ & x & Hx & ->).
  unfold parse_part. rewrite <- app_assoc, u16_be16, to_nat_len. now apply parse_items_ok.
Qed.

Lemma parse_parts_ok ps : forall a rest,
  enc_parts ps = EOk a ->
  parse_parts (length ps) (a ++ rest, false) = POk (ps, (rest, false)).
Proof.
  induction ps as [|p r IH]; intros a rest H; simpl in H.
  - injection H as <-. reflexivity.
  - apply ebind_inv in H as (x & Hx & H). apply ebind_inv in H as (y & Hy & [= <-]).
    cbn [length parse_parts]. rewrite <- app_assoc, (parse_part_ok _ _ _ Hx). cbn [pbind].
    rewrite (IH _ _ Hy). reflexivity.
Qed.

Lemma parse_data_ok d a : enc_data d = EOk a -> parse_data a = POk d.
Proof.
  intros H. apply counted_inv in H as (_ & x & Hx & ->).
  unfold parse_data. rewrite u16_be16, to_nat_len, <- (app_nil_r x), (parse_parts_ok _ _ _ Hx).
  reflexivity.
Qed.

Lemma enc_items_len p : Forall item_ok p -> sized (enc_items p) (sumZ (map item_size p)).
Proof.
  induction 1 as [|it r Hi Hr IH]; [exists []; split; reflexivity|].
  apply cat_sized; [|exact IH]. destruct it as [|s].
  - exists [255; 255]. split; reflexivity.
  - destruct Hi as (Hs & Ht). exact (counted_sized _ _ _ _ Hs (enc_text_ok _ Ht)).
Qed.

Lemma enc_parts_len d :
  Forall (fun p => len p <= 32767 /\ Forall item_ok p) d ->
  sized (enc_parts d) (sumZ (map part_size d)).
Proof.
  induction 1 as [|p r (Hp & Hi) Hr IH]; [exists []; split; reflexivity|].
  exact (cat_sized _ _ _ _ (counted_sized _ _ _ _ Hp (enc_items_len _ Hi)) IH).
Qed.

Lemma section_step f ty body rest ls d g c seen :
  zmem ty seen = false ->
  parse_sections (S f) ((ty :: be32 (len body) ++ body) ++ rest) (mkPstate ls d g c seen) =
  pbind
    (if ty =? 1 then
       pbind (parse_literals (List.length body) body) (fun ls' =>
       POk (mkPstate ls' d g c (ty :: seen)))
     else if ty =? 2 then
       pbind (parse_data body) (fun d' => POk (mkPstate ls d' g c (ty :: seen)))
     else if ty =? 3 then
       pbind (parse_globals body) (fun g' => POk (mkPstate ls d (Some g') c (ty :: seen)))
     else if ty =? 4 then POk (mkPstate ls d g body (ty :: seen))
     else if ty =? 5 then POk (mkPstate ls d g c (ty :: seen))
     else PExit)
    (fun st' => parse_sections f rest st').
Proof.
  intros S. change ((ty :: be32 (len body) ++ body) ++ rest)
    with (ty :: ((be32 (len body) ++ body) ++ rest)).
  cbn [parse_sections ps_seen]. rewrite S, <- !app_assoc, u32_be32.
  replace (Z.min (len body) (len (body ++ rest) + 1)) with (len body)
    by (rewrite len_app; pose proof (len_nonneg rest); lia).
  rewrite (take_app body rest _ eq_refl). reflexivity.
Qed.

Lemma enc_section_inv id body s : enc_section id body = EOk s -> s = id :: be32 (len body) ++ body.
Proof. unfold enc_section. destruct (_ <? _); [discriminate|]. intros [= <-]. reflexivity. Qed.

Lemma enc_section_ok id body :
  len body <= 4294967295 -> enc_section id body = EOk (id :: be32 (len body) ++ body).
Proof. intros L. unfold enc_section. replace (_ <? _) with false by lia. reflexivity. Qed.

Lemma parse_globals_be32 g : parse_globals (be32 g) = POk g.
Proof.
  unfold parse_globals. change (u32 (be32 g)) with (u32 (be32 g ++ [])). rewrite u32_be32.
  reflexivity.
Qed.

Lemma decode_encode_module_gen m bs :
  encode_module m = EOk bs -> decode_module_dbg bs = POk (m, false).
Proof.
  unfold encode_module. intros H.
  apply ebind_inv in H as (lits & Hl & H).
  apply ebind_inv in H as (dat & Hd & H).
  apply ebind_inv in H as (glb & Hg & H).
  apply ebind_inv in H as (s1 & H1 & H).
  apply ebind_inv in H as (s2 & H2 & H).
  apply ebind_inv in H as (s3 & H3 & H).
  apply ebind_inv in H as (s4 & H4 & [= <-]).
  apply enc_section_inv in H1 as ->, H2 as ->, H3 as ->, H4 as ->.
  destruct (in_range _ _ _) in Hg; [|discriminate]. injection Hg as <-.
  unfold decode_module_dbg, ps_init.
  (* four sections, each longer than one byte *)
  match goal with |- context [parse_sections ?n _ _] => remember n as fuel eqn:Hf end.
  assert (4 <= fuel)%nat as F by (subst fuel; rewrite !app_length; simpl; lia).
  clear Hf. destruct fuel as [|[|[|[|k]]]]; [lia..|]. clear F.
  rewrite section_step by reflexivity. rewrite (parse_literals_ok _ _ _ Hl) by apply le_n.
  cbn [Z.eqb Pos.eqb pbind].
  rewrite section_step by reflexivity. rewrite (parse_data_ok _ _ Hd). cbn [Z.eqb Pos.eqb pbind].
  rewrite section_step by reflexivity. rewrite parse_globals_be32. cbn [Z.eqb Pos.eqb pbind].
  rewrite <- (app_nil_r (4 :: be32 (len (b_code m)) ++ b_code m)).
  rewrite section_step by reflexivity. cbn [Z.eqb Pos.eqb pbind].
  destruct k, m; reflexivity.
Qed.

Lemma sizes_ok_encodes m : sizes_ok m -> exists bs, encode_module m = EOk bs.
Proof.
  intros [Hl Hls Hp Hpt Hds Hg Hc Hcs].
  destruct (enc_literals_len _ Hl) as (lits & El & Ll).
  destruct (counted_sized _ _ _ _ Hp (enc_parts_len _ Hpt)) as (dat & Ed & Ld).
  unfold encode_module, in_range. rewrite El. unfold enc_data. rewrite Ed.
  replace (_ && _) with true by lia.
  repeat (cbn [ebind]; rewrite enc_section_ok by (rewrite ?len_be32; lia)).
  cbn [ebind]. eexists. reflexivity.
Qed.

Lemma wide_part_struct_error p :
  32767 < len p -> encode_module (mkBmod [] [p] 0 []) = EStructError.
Proof.
  intros W. unfold encode_module, enc_data.
  cbn [b_literals b_data enc_literals ebind enc_parts]. unfold enc_part.
  replace (32767 <? len p) with true by lia. reflexivity.
Qed.

(* the writer refuses what the reader's field could carry: a DATA part of
   32768 items (count written '>h', read '>H') - D30 at section level.
   The list stays behind its length: nothing here unfolds it. *)
Lemma wide_part_rejected :
  let m := mkBmod [] [repeat DEmpty (Z.to_nat 32768)] 0 [] in
  encode_module m = EStructError /\ len (hd [] (b_data m)) <= 65535.
Proof.
  intros m.
  assert (len (repeat DEmpty (Z.to_nat 32768)) = 32768) as E
    by (unfold len; rewrite repeat_length; lia).
  split.
  - apply wide_part_struct_error. rewrite E. reflexivity.
  - change (len (repeat DEmpty (Z.to_nat 32768)) <= 65535). rewrite E. discriminate.
Qed.
