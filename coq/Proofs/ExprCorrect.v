(* Correctness of expression code against the reference semantics, for the
   INTEGER/LONG fragment (ExprCodegen.in_fragment): literals, local scalar
   variables, unary - NOT +, parentheses, + - *, the six comparisons and the
   five logical operators, with the implicit INTEGER -> LONG conversions. *)
From Coq Require Import ZArith List Bool Lia.
From QV Require Import Cell Machine Cpu SemBase ExprCodegen SemFacts ExprStack ListIndex.
Import ListNotations.
Open Scope Z_scope.

Definition rho_of (cells : list (option cell)) (i : Z) : option cell :=
  match nthZ cells i with Some oc => oc | None => None end.

Fixpoint vars_ok (tyenv : Z -> vty) (cells : list (option cell)) (e : pexpr) : Prop :=
  match e with
  | PLit _ | PStrLit _ _ => True
  | PVar i t =>
    t = tyenv i /\ 0 <= i < Z.of_nat (length cells) /\
    match rho_of cells i with
    | Some c => ty_of c = t /\ wf_cell c = true
    | None => True
    end
  | PUn _ a | PPar a => vars_ok tyenv cells a
  | PBin _ l r => vars_ok tyenv cells l /\ vars_ok tyenv cells r
  end.

(* cells' is cells with some unset cells materialised to the default of their type *)
Definition mat (tyenv : Z -> vty) (cells cells' : list (option cell)) : Prop :=
  length cells' = length cells /\
  forall i, 0 <= i ->
            rho_of cells' i = rho_of cells i \/
            (rho_of cells i = None /\ rho_of cells' i = Some (default_of (tyenv i))).

Lemma mat_refl tyenv c : mat tyenv c c.
Proof. split; auto. Qed.

Lemma mat_trans tyenv a b c : mat tyenv a b -> mat tyenv b c -> mat tyenv a c.
Proof.
  intros [L1 H1] [L2 H2]. split; [congruence|].
  intros i Hi. destruct (H2 i Hi) as [-> | [E2 ->]]; [exact (H1 i Hi)|].
  right. split; [|reflexivity]. destruct (H1 i Hi) as [<- | [E1 _]]; assumption.
Qed.

Lemma mat_set tyenv cells i :
  0 <= i < Z.of_nat (length cells) -> rho_of cells i = None ->
  mat tyenv cells (set_nth cells (Z.to_nat i) (Some (default_of (tyenv i)))).
Proof.
  intros Hi Hn. split; [apply set_nth_length|].
  intros k Hk. unfold rho_of in *. rewrite nthZ_set_nth by assumption.
  destruct (Z.eqb_spec k i) as [->|Hne]; auto.
Qed.

Lemma wf_default t : wf_cell (default_of t) = true.
Proof. destruct t; reflexivity. Qed.
Lemma ty_default t : ty_of (default_of t) = t.
Proof. destruct t; reflexivity. Qed.

Definition upd (x : Machine.st) (h : list seg) (s : list cell) : Machine.st := set_stack (set_heap x h) s.

Lemma upd_same st : upd st (heap st) (stack st) = st.
Proof. destruct st; reflexivity. Qed.

Definition int_cell (t : vty) (z : Z) : cell := match t with TI => CI z | _ => CL z end.

Lemma ty_int_cell t z : integral t = true -> ty_of (int_cell t z) = t.
Proof. destruct t; try discriminate; reflexivity. Qed.

Lemma integral_cell v t : ty_of v = t -> integral t = true -> exists z, v = int_cell t z.
Proof. intros <-. destruct v; try discriminate; eexists; reflexivity. Qed.

Lemma default_cell_rank t : default_cell (rank t) = default_of t.
Proof. destruct t; reflexivity. Qed.

Lemma in_int_long z : in_int z = true -> in_long z = true.
Proof. unfold in_int, in_long. lia. Qed.

Lemma integral_join a b : integral a = true -> integral b = true -> integral (join a b) = true.
Proof. destruct a, b; try discriminate; reflexivity. Qed.

Definition int_fun (o : binop) : option (Z -> Z -> Z) :=
  match o with
  | OAdd => Some Z.add | OSub => Some Z.sub | OMul => Some Z.mul
  | OAnd => Some Z.land | OOr => Some Z.lor | OXor => Some Z.lxor
  | OEqv => Some (fun x y => Z.lnot (Z.lxor x y)) | OImp => Some (fun x y => Z.lor (Z.lnot x) y)
  | _ => None
  end.

Definition frag_op (o : binop) : bool :=
  match o with ODiv | OIDiv | OMod | OPow => false | _ => true end.

Lemma agree_op_inv o lt rt :
  agree_op o lt rt = true -> integral lt = true /\ integral rt = true /\ frag_op o = true.
Proof.
  intro H. apply andb_true_iff in H as [H Ho]. apply andb_true_iff in H as [Hl Hr]. auto.
Qed.

Lemma rank_join a b : rank a <= rank (join a b) /\ rank b <= rank (join a b).
Proof. unfold join. destruct (Z.ltb_spec (rank a) (rank b)); lia. Qed.

Section Code.
Variables (m : module) (st0 : st) (tyenv : Z -> vty) (g : Z).

(* Every state below is st0 with another heap and stack.  An instruction that
   computes an integral value ends in this push, the reference semantics in
   mk_num, and the two check the range alike. *)
Lemma push_int t z h s :
  integral t = true ->
  push (rank t) (PInt z) (upd st0 h s) =
  if wf_cell (int_cell t z) then R tt (upd st0 h (int_cell t z :: s))
  else T T_INVALID_CELL_VALUE true (upd st0 h s).
Proof.
  destruct t; try discriminate; intros _; unfold push, bind; simpl; destruct (_ z); reflexivity.
Qed.

Lemma mk_num_int t z :
  integral t = true ->
  mk_num no_quirks t z = if wf_cell (int_cell t z) then POk (int_cell t z) else PErr EOverflow.
Proof. destruct t; try discriminate; reflexivity. Qed.

Lemma push_lit_int t z st' :
  integral t = true -> exec_list m (push_lit (int_cell t z)) st' = push (rank t) (PInt z) st'.
Proof.
  destruct t; try discriminate; intros _; unfold push_lit, small_const, int_cell;
    destruct ((-2 <=? z) && (z <=? 2)); cbv iota; rewrite exec_list_one; reflexivity.
Qed.

Lemma conv_code_ok t t' c z h s :
  integral t = true -> integral t' = true -> rank t <= rank t' -> wf_cell (int_cell t z) = true ->
  exec_list m (conv_code t t' ++ c) (upd st0 h (int_cell t z :: s)) =
  exec_list m c (upd st0 h (int_cell t' z :: s)).
Proof.
  destruct t; try discriminate; destruct t'; try discriminate; intros _ _ Hr Hw;
    try (now elim Hr); try reflexivity.
  change (conv_code TI TL ++ c) with (IConv 1 2 :: c). cbn [exec_list]. unfold bind.
  change (exec m _ _) with (push (rank TL) (PInt z) (upd st0 h s)).
  rewrite push_int by reflexivity. simpl wf_cell. rewrite (in_int_long _ Hw). reflexivity.
Qed.

Lemma exec_op o t x y h s :
  frag_op o = true -> integral t = true ->
  exec_list m (op_instrs o) (upd st0 h (int_cell t y :: int_cell t x :: s)) =
  match int_fun o with
  | Some f => push (rank t) (PInt (f x y)) (upd st0 h s)
  | None => R tt (upd st0 h (bool_cell (rel_holds o (x ?= y)) :: s))
  end.
Proof.
  intros Ho Ht. destruct t; try discriminate Ht; destruct o; try discriminate Ho;
    cbn [op_instrs int_fun];
    rewrite ?exec_list_one; try reflexivity;
    cbn [exec_list]; unfold bind at 1 2; cbn; destruct (x ?= y); vm_compute; reflexivity.
Qed.

Lemma sem_op o ta tb x y :
  frag_op o = true -> integral ta = true -> integral tb = true ->
  binop_sem no_quirks o (int_cell ta x) (int_cell tb y) =
  match int_fun o with
  | Some f => mk_num no_quirks (join ta tb) (f x y)
  | None => POk (bool_cell (rel_holds o (x ?= y)))
  end.
Proof.
  intros Ho Ha Hb. destruct ta; try discriminate Ha; destruct tb; try discriminate Hb;
    destruct o; try discriminate Ho; reflexivity.
Qed.

Definition heap_holds (cells : list (option cell)) (h : list seg) : Prop :=
  exists sg, nthZ h g = Some sg /\ mat tyenv cells (s_cells sg).

(* o is the outcome of code that is to put the reference result r on top of s:
   the value, as Q wants it, on a heap that holds the frame; or the trap of
   the reference error *)
Definition pushed (cells : list (option cell)) (s : list cell) (r : pres cell) (Q : cell -> Prop)
           (o : out unit) : Prop :=
  match r with
  | POk v =>
    exists h' sg',
      o = R tt (upd st0 h' (v :: s)) /\ nthZ h' g = Some sg' /\ mat tyenv cells (s_cells sg') /\ Q v
  | PErr er => exists kw st', o = T (trap_of_err er) kw st'
  | PStuck _ => False
  end.

Lemma pushed_R cells s v h (Q : cell -> Prop) :
  heap_holds cells h -> Q v -> pushed cells s (POk v) Q (R tt (upd st0 h (v :: s))).
Proof. intros [sg [Hh Hm]] H. exists h, sg. auto. Qed.

Lemma pushed_impl cells s r (Q Q' : cell -> Prop) o :
  pushed cells s r Q o -> (forall v, r = POk v -> Q v -> Q' v) -> pushed cells s r Q' o.
Proof. destruct r; simpl; auto. intros [h [sg [E [Hh [Hm H]]]]] HQ. exists h, sg. auto. Qed.

Lemma pushed_bind cells s1 s2 r f (Q1 Q2 : cell -> Prop) c1 c2 st1 :
  pushed cells s1 r Q1 (exec_list m c1 st1) ->
  (forall h v, heap_holds cells h -> Q1 v -> pushed cells s2 (f v) Q2 (exec_list m c2 (upd st0 h (v :: s1)))) ->
  pushed cells s2 (pbind r f) Q2 (exec_list m (c1 ++ c2) st1).
Proof.
  intros H1 H2. rewrite exec_list_app. unfold bind.
  destruct r as [v | er | w]; simpl in *.
  - destruct H1 as [h [sg [-> [Hh [Hm H]]]]]. apply H2; [exists sg; auto | exact H].
  - destruct H1 as [kw [st' ->]]. eauto.
  - contradiction.
Qed.

Lemma pushed_int cells t z h s :
  integral t = true -> heap_holds cells h ->
  pushed cells s (mk_num no_quirks t z) (fun v => ty_of v = t /\ wf_cell v = true)
         (push (rank t) (PInt z) (upd st0 h s)).
Proof.
  intros Ht Hfr. rewrite push_int, mk_num_int by exact Ht.
  destruct (wf_cell (int_cell t z)) eqn:W.
  - destruct t; try discriminate; apply pushed_R; auto.
  - simpl. eauto.
Qed.

Lemma unop_ok cells o t z h s :
  integral t = true -> wf_cell (int_cell t z) = true -> heap_holds cells h ->
  pushed cells s (unop_sem no_quirks o (int_cell t z)) (fun v => ty_of v = t /\ wf_cell v = true)
         (exec_list m match o with
                      | UNeg => [INeg]
                      | UNot => conv_code t (match t with TI => TI | _ => TL end) ++ [INot]
                      | UPlus => []
                      end (upd st0 h (int_cell t z :: s))).
Proof.
  intros Ht Hw Hfr. destruct o.
  - rewrite exec_list_one. destruct t; try discriminate Ht; exact (pushed_int _ _ (- z) h s Ht Hfr).
  - (* INTEGER and LONG are not converted *)
    destruct t; try discriminate Ht; change (conv_code _ _ ++ [INot]) with [INot]; rewrite exec_list_one;
      exact (pushed_int _ _ (Z.lnot z) h s Ht Hfr).
  - destruct t; try discriminate Ht; apply pushed_R; auto.
Qed.

Lemma binop_ok cells o ta tb x y h s :
  agree_op o ta tb = true -> heap_holds cells h ->
  pushed cells s (binop_sem no_quirks o (int_cell ta x) (int_cell tb y)) (fun v => wf_cell v = true)
         (exec_list m (op_instrs o)
                    (upd st0 h (int_cell (join ta tb) y :: int_cell (join ta tb) x :: s))).
Proof.
  intros Ha Hfr. destruct (agree_op_inv _ _ _ Ha) as [Hta [Htb Ho]].
  pose proof (integral_join _ _ Hta Htb) as Hj.
  rewrite sem_op, exec_op by assumption.
  destruct (int_fun o) as [f|].
  - eapply pushed_impl; [apply pushed_int; eassumption|]. intros v _ [_ W]. exact W.
  - apply pushed_R; [exact Hfr|]. destruct (rel_holds _ _); reflexivity.
Qed.

(* qbee types an operator of the fragment as the typing rules do, at an
   integral type, and converts both operands to the join of their types *)
Lemma frag_types o lt rt :
  agree_op o lt rt = true ->
  exists nt, q_binop_ty o lt rt = Some nt /\ operand_ty o lt rt nt = join lt rt /\
             binop_ty o lt rt = Some nt /\ integral nt = true.
Proof.
  intro Ha. destruct (agree_op_inv _ _ _ Ha) as [Hl [Hr Ho]].
  destruct lt; try discriminate Hl; destruct rt; try discriminate Hr; destruct o; try discriminate Ho;
    eexists; repeat split.
Qed.

Hypotheses (Hcur : cur st0 = Some g) (Hg : 0 <= g).

(* reading frame cell i pushes its value, or the default of its type after
   storing it in the cell *)
Lemma read_ok i h s sg :
  nthZ h g = Some sg -> 0 <= i < Z.of_nat (length (s_cells sg)) -> integral (tyenv i) = true ->
  exists h' sg',
    exec m (IRead true (rank (tyenv i)) i) (upd st0 h s) =
    R tt (upd st0 h' (match rho_of (s_cells sg) i with Some c => c | None => default_of (tyenv i) end :: s)) /\
    nthZ h' g = Some sg' /\ mat tyenv (s_cells sg) (s_cells sg').
Proof.
  intros Hh Hi Ht.
  assert (Hgb : 0 <= g < Z.of_nat (length h)) by (split; [exact Hg | exact (nthZ_some_bound _ _ _ Hg Hh)]).
  destruct (nthZ_in_range (s_cells sg) i Hi) as [oc Hn].
  pose proof (mat_set tyenv (s_cells sg) i Hi) as Hm.
  unfold rho_of in *. rewrite Hn in *.
  destruct oc as [c|]; eexists _, _; (split; [|split]).
  (* the frame and the cell are looked up by read_var and, for an unset cell,
     again by write_var and seg_set, which store the default *)
  1, 4: unfold exec, read_generic;
    replace (rank (tyenv i) =? 7) with false by (destruct (tyenv i); reflexivity || discriminate);
    unfold read_var, write_var, seg_set, scope_seg, cur_frame, get_seg, bind;
    repeat (progress (cbn -[nthZ setZ];
                      rewrite ?Hcur, ?Hh, ?Hn, ?(setZ_nat _ _ _ Hi), ?(setZ_nat _ _ _ Hgb)));
    rewrite ?default_cell_rank; reflexivity.
  - exact Hh.
  - apply mat_refl.
  - rewrite nthZ_set_nth, Z.eqb_refl by assumption. reflexivity.
  - exact (Hm eq_refl).
Qed.

Definition correct (e : pexpr) : Prop :=
  forall cells h s,
    vars_ok tyenv cells e -> heap_holds cells h ->
    pushed cells s (peval no_quirks (rho_of cells) e)
           (fun v => q_ty e = Some (ty_of v) /\ integral (ty_of v) = true /\ wf_cell v = true)
           (exec_list m (cg e) (upd st0 h s)).

Lemma correct_lit c : integral (ty_of c) = true -> wf_cell c = true -> correct (PLit c).
Proof.
  intros Ht Hw cells h s _ Hfr.
  remember (ty_of c) as t eqn:Et. destruct (integral_cell c t) as [z ->]; auto.
  cbn [cg]. rewrite push_lit_int, push_int, Hw by exact Ht. apply pushed_R; [exact Hfr|].
  cbn [q_ty]. rewrite <- Et. destruct t; try discriminate; auto.
Qed.

Lemma correct_var i t : integral t = true -> correct (PVar i t).
Proof.
  intros Ht cells h s [-> [Hb Hval]] [sg [Hh Hm]]. cbn [cg peval q_ty]. rewrite exec_list_one.
  destruct (read_ok i h s sg Hh) as [h' [sg' [-> [Hh' Hm']]]]; [rewrite (proj1 Hm); exact Hb | exact Ht |].
  (* the cell is as the reference semantics has it, or unset there and the default by now *)
  destruct (proj2 Hm i (proj1 Hb)) as [-> | [-> ->]]; [destruct (rho_of cells i) as [c|]|].
  all: apply pushed_R; [exists sg'; eauto using mat_trans|].
  - destruct Hval as [-> Hw]. auto.
  - rewrite ty_default. auto using wf_default.
  - rewrite ty_default. auto using wf_default.
Qed.

Lemma correct_un o a : correct a -> correct (PUn o a).
Proof.
  intros IH cells h s Hv Hfr. cbn [peval cg].
  eapply pushed_bind; [exact (IH _ _ _ Hv Hfr)|].
  intros h1 va Hfr1 [Hq [Hi Hw]].
  remember (ty_of va) as t eqn:Et. destruct (integral_cell va t) as [z ->]; auto.
  rewrite Hq.
  eapply pushed_impl; [apply unop_ok; assumption|].
  intros v _ [Ty W]. cbn [q_ty]. rewrite Hq, Ty.
  destruct o, t; try discriminate; auto.
Qed.

Lemma correct_bin o l r lt rt :
  q_ty l = Some lt -> q_ty r = Some rt -> agree_op o lt rt = true ->
  correct l -> correct r -> correct (PBin o l r).
Proof.
  intros Hql Hqr Ha IHl IHr cells h s [Hvl Hvr] Hfr.
  destruct (agree_op_inv _ _ _ Ha) as [Hil [Hir _]].
  pose proof (integral_join _ _ Hil Hir) as Hj.
  destruct (frag_types _ _ _ Ha) as [nt [Hq [Hop [Hb Hint]]]].
  cbn [cg q_ty peval]. rewrite Hql, Hqr, Hq. cbv zeta. rewrite Hop.
  eapply pushed_bind; [exact (IHl _ _ _ Hvl Hfr)|].
  intros h1 va Hfr1 [Hq1 [_ Hw1]].
  destruct (integral_cell va lt) as [x ->]; [congruence | exact Hil |].
  rewrite conv_code_ok by (try apply rank_join; assumption).
  eapply pushed_bind; [exact (IHr _ _ _ Hvr Hfr1)|].
  intros h2 vb Hfr2 [Hq2 [_ Hw2]].
  destruct (integral_cell vb rt) as [y ->]; [congruence | exact Hir |].
  rewrite conv_code_ok by (try apply rank_join; assumption).
  eapply pushed_impl; [apply binop_ok; assumption|].
  (* the value has the type the typing rules give (SemFacts) *)
  intros v Ty W. apply binop_ty_sound in Ty; [|reflexivity]. rewrite !ty_int_cell in Ty by assumption.
  rewrite Hb in Ty. injection Ty as <-. auto.
Qed.

Theorem frag_correct e : in_fragment e = true -> correct e.
Proof.
  induction e as [c | idx s0 | i t | o a IH | o l IHl r IHr | a IH]; cbn [in_fragment]; intro Hf.
  - apply andb_true_iff in Hf as [Ht Hw]. apply correct_lit; assumption.
  - discriminate.
  - apply andb_true_iff in Hf as [Ht _]. apply correct_var; assumption.
  - apply correct_un, IH, Hf.
  - apply andb_true_iff in Hf as [Hf Ha]. apply andb_true_iff in Hf as [Hfl Hfr].
    destruct (q_ty l) as [lt|] eqn:Hql; [|discriminate].
    destruct (q_ty r) as [rt|] eqn:Hqr; [|discriminate].
    eapply correct_bin; eauto.
  - exact (IH Hf).
Qed.

End Code.

Definition frame_at (st : Machine.st) (g : Z) (sg : seg) : Prop :=
  cur st = Some g /\ 0 <= g /\ nthZ (heap st) g = Some sg.
