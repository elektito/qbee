(* Lemmas about the machine model used by C07: the interrupt, a halted run, and one
   lemma per trap cause (which input of which instruction raises it). *)
From Coq Require Import ZArith List Bool Lia.
From QV Require Import Sx Strs Fl Cell Machine Cpu.
Import ListNotations.
Open Scope Z_scope.

Definition interrupted (s : st) : st :=
  set_halt (set_last_trap (set_irq s false) (Some T_KEYBOARD_INTERRUPT) true) true H_TRAP.

Lemma interrupt_stops m s :
  irq s = true ->
  (ttarget_ s = TNone \/ handler_active s = true) ->
  tick m s = Next (interrupted s).
Proof.
  intros Hi Hh. unfold tick. rewrite Hi. unfold do_trap, interrupted.
  destruct s as [pc0 ppc stk hp cu hl rs lt kw tt ha ta iq dp di lr sc ev].
  cbn in *. destruct Hh as [-> | ->].
  - destruct ha; reflexivity.
  - reflexivity.
Qed.

Lemma run_halted m fuel s n : halted s = true -> run m (S fuel) s n = (s, StHalt, n).
Proof. intro H. cbn. rewrite H. reflexivity. Qed.

Lemma div_zero_double m s x r neg :
  stack s = CD (FFin neg 0 0) :: CD x :: r -> exec m IDiv s = ZD (set_stack s r).
Proof. intro H. unfold exec, bind, pop. rewrite H. cbn. reflexivity. Qed.

Lemma push_int_overflow z s :
  in_int z = false -> push 1 (PInt z) s = T T_INVALID_CELL_VALUE true s.
Proof. intro H. unfold push, bind, mk_cell. rewrite H. reflexivity. Qed.

Lemma push_long_overflow z s :
  in_long z = false -> push 2 (PInt z) s = T T_INVALID_CELL_VALUE true s.
Proof. intro H. unfold push, bind, mk_cell. rewrite H. reflexivity. Qed.

Lemma add_int_overflow m s x y r :
  stack s = CI y :: CI x :: r -> in_int (x + y) = false ->
  exec m IAdd s = T T_INVALID_CELL_VALUE true (set_stack s r).
Proof.
  intros H Ho. unfold exec, bind, pop. rewrite H. cbn.
  unfold push_opt, py_add, pv. rewrite push_int_overflow by exact Ho. reflexivity.
Qed.

Lemma mul_long_overflow m s x y r :
  stack s = CL y :: CL x :: r -> in_long (x * y) = false ->
  exec m IMul s = T T_INVALID_CELL_VALUE true (set_stack s r).
Proof.
  intros H Ho. unfold exec, arith_prelude, bind, pop. rewrite H. cbn.
  unfold push_opt, py_mul, pv. rewrite push_long_overflow by exact Ho. reflexivity.
Qed.

Lemma chr_illegal m s c r :
  stack s = CI c :: r -> (c < 0 \/ c > 255) ->
  exec m IChr s = T T_INVALID_OPERAND_VALUE true (set_stack s r).
Proof.
  intros H Hc. unfold exec, pop_int, pop_ty, bind, pop. rewrite H. cbn.
  replace ((c <? 0) || (c >? 255)) with true by lia. reflexivity.
Qed.

Lemma asc_empty m s r :
  stack s = CStr [] :: r -> exec m IAsc s = T T_INVALID_OPERAND_VALUE true (set_stack s r).
Proof. intro H. unfold exec, pop_str, pop_ty, bind, pop. rewrite H. reflexivity. Qed.

Lemma space_negative m s n r :
  stack s = CI n :: r -> n < 0 -> exec m ISpace s = T T_INVALID_OPERAND_VALUE true (set_stack s r).
Proof.
  intros H Hn. unfold exec, pop_int, pop_ty, bind, pop. rewrite H. cbn.
  replace (n <? 0) with true by lia. reflexivity.
Qed.
