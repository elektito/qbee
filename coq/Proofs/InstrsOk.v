(* Finite obligations tying the generated instruction table (qvm/instrs.py as it
   is in the repository now) to the hand-written decoder and mnemonics.  They
   break when an instruction is renumbered, renamed, re-typed, added or
   removed; tools/props/c09.py then reports the failing entries. *)
From Coq Require Import String.
From Coq Require Import ZArith List Bool.
From QV Require Import Sx Strs Fl Machine Cpu Instrs Codec InstrCheck.
Import ListNotations.
Open Scope Z_scope.

Lemma opcodes_unique_ok : opcodes_unique instr_table = true.
Proof. vm_compute. reflexivity. Qed.

Lemma mnemonics_unique_ok : mnemonics_unique instr_table = true.
Proof. vm_compute. reflexivity. Qed.

(* every table entry, tried on operand bytes that are all 255: Cpu.decode of
   the opcode followed by them yields an instruction of that mnemonic, of size
   1 + sum of operand sizes, whose operands are what the table's widths and
   signedness read from such bytes, and one byte fewer is a truncation *)
Lemma decode_agrees_with_table_ok : table_agrees instr_table = true.
Proof. vm_compute. reflexivity. Qed.

(* every byte that is not an opcode of the table, followed by 16 bytes 255,
   decodes to DUnknown *)
Lemma unknown_opcodes_ok : unknown_agrees instr_table = true.
Proof. vm_compute. reflexivity. Qed.

(* the trap codes the machine model uses are the ones of qvm/trap.py *)
Definition lookup_z (name : str) (t : list (list Z * Z)) : option Z :=
  match find (fun e => str_eqb (fst e) name) t with Some e => Some (snd e) | None => None end.

Lemma trap_codes_ok :
  map (fun n => lookup_z (s2l n) trap_codes)
      ["INVALID_OP_CODE"; "DEVICE_NOT_AVAILABLE"; "DEVICE_ERROR"; "STACK_EMPTY";
       "INVALID_LOCAL_VAR_IDX"; "INVALID_GLOBAL_VAR_IDX"; "TYPE_MISMATCH"; "NULL_REFERENCE";
       "INVALID_OPERAND_VALUE"; "INVALID_CELL_VALUE"; "INDEX_OUT_OF_RANGE";
       "INVALID_DIMENSIONS"; "KEYBOARD_INTERRUPT"; "DIVISION_BY_ZERO"; "UNINITIALIZED_MEM";
       "NO_RESUME"; "ERRHAND_IN_HANDLER"; "CANNOT_RESUME"]%string
  = map Some [T_INVALID_OP_CODE; T_DEVICE_NOT_AVAILABLE; T_DEVICE_ERROR; T_STACK_EMPTY;
              T_INVALID_VAR_IDX; T_INVALID_VAR_IDX; T_TYPE_MISMATCH; T_NULL_REFERENCE;
              T_INVALID_OPERAND_VALUE; T_INVALID_CELL_VALUE; T_INDEX_OUT_OF_RANGE;
              T_INVALID_DIMENSIONS; T_KEYBOARD_INTERRUPT; T_DIVISION_BY_ZERO;
              T_UNINITIALIZED_MEM; T_NO_RESUME; T_ERRHAND_IN_HANDLER; T_CANNOT_RESUME].
Proof. vm_compute. reflexivity. Qed.
