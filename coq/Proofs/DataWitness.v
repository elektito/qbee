(* C15: concrete witnesses (the defects D11, on the generator that pushes -1 for a bare
   RESTORE, and D12), the statement extent, and the finite sweep relating the model of the
   grammar rule data_stmt to the specification (D44). *)
From Coq Require Import ZArith List Bool Lia.
From QV Require Import Sx Strs Fl NumFmt Cell DataText DataDev DataSpec DataProofs.
Import ListNotations.
Open Scope Z_scope.

Definition lbl_a : label := [108; 97].     (* la *)
Definition lbl_b : label := [108; 98].     (* lb *)
Definition it (z : Z) : ditem := DItem [48 + z].   (* one-digit numeric item *)

(* D11: RESTORE without label *)

(* DATA 1 / la: / DATA 2       READ a% : RESTORE : READ b% *)
Definition d11_evs : list ev := [EData [it 1]; ELabel lbl_a; EData [it 2]].
Definition d11_ops : list op := [ORead 1; ORestore None; ORead 1].

Lemma restore_bare_refuted :
  exists evs ops,
    prog_valid evs ops = true /\ data_nonempty evs = true /\ ops_typed ops = true /\
    targets_own_data evs ops = true /\
    run_prog evs ops = PRun [CI 1; CI 2] EDone /\
    spec_prog evs ops = SRun [CI 1; CI 1] SDone /\
    abstract_pres (run_prog evs ops) <> Some (spec_prog evs ops).
Proof.
  exists d11_evs, d11_ops. repeat split; try (vm_compute; reflexivity).
  vm_compute. discriminate.
Qed.

(* DATA 1       READ : RESTORE : READ : READ   -- the third READ must be out of data *)
Definition d11w_evs : list ev := [EData [it 1]].
Definition d11w_ops : list op := [ORead 1; ORestore None; ORead 1; ORead 1].

Lemma restore_bare_wraps_refuted :
  exists evs ops,
    prog_valid evs ops = true /\ data_nonempty evs = true /\ ops_typed ops = true /\
    targets_own_data evs ops = true /\ length (parts_of (group evs)) = 1%nat /\
    run_prog evs ops = PRun [CI 1; CI 1; CI 1] EDone /\
    spec_prog evs ops = SRun [CI 1; CI 1] SRuntimeError.
Proof. exists d11w_evs, d11w_ops. repeat split; vm_compute; reflexivity. Qed.

Lemma restore_bare_fixed_witnesses :
  abstract_pres (run_prog_fixed d11_evs d11_ops) = Some (spec_prog d11_evs d11_ops) /\
  abstract_pres (run_prog_fixed d11w_evs d11w_ops) = Some (spec_prog d11w_evs d11w_ops).
Proof. split; vm_compute; reflexivity. Qed.

(* D12: RESTORE l, l without DATA directly after it *)

(* RESTORE la : READ a% *)
Definition d12_ops : list op := [ORestore (Some lbl_a); ORead 1].

(* la: / lb: / DATA 5    -- the witness of C15_restore_label_refuted in Props/C15.v *)
Definition d12_evs : list ev := [ELabel lbl_a; ELabel lbl_b; EData [it 5]].

(* DATA 5 / la:    -- demanded: out of data at READ *)
Lemma restore_label_at_end_refuted :
  run_prog [EData [it 5]; ELabel lbl_a] d12_ops = PCompile CValueError /\
  spec_prog [EData [it 5]; ELabel lbl_a] d12_ops = SRun [] SRuntimeError.
Proof. split; vm_compute; reflexivity. Qed.

Lemma extent_split s : forall m,
  let '(t, r, _) := extent m s in
  t ++ r = s /\ (r = [] \/ exists r', r = ch_colon :: r').
Proof.
  induction s as [|c s IH]; intro m; [simpl; split; [reflexivity | now left]|].
  set (P := fun x : str * str * bool =>
              let '(t, r, _) := x in t ++ r = c :: s /\ (r = [] \/ exists r', r = ch_colon :: r')).
  change (P (extent m (c :: s))).
  (* every branch stops at a colon or takes the character and goes on in some mode *)
  assert (C : (c =? ch_colon) = true -> P ([], c :: s, false)).
  { intro E. apply Z.eqb_eq in E. subst c. split; [reflexivity | right; now exists s]. }
  assert (G : forall m' fl, P (let '(a, b, f) := extent m' s in (c :: a, b, fl || f))).
  { intros m' fl. specialize (IH m'). destruct (extent m' s) as [[a b] f], IH as [H1 H2].
    split; [simpl; now rewrite H1 | exact H2]. }
  clearbody P.
  destruct m; cbn [extent]; try (destruct (c =? ch_colon) eqn:E1; [now apply C|]);
    destruct (c =? ch_comma), (is_blank c), (c =? ch_quote); apply G.
Qed.

Fixpoint strs_exact (alpha : list Z) (n : nat) : list str :=
  match n with
  | O => [[]]
  | S k => flat_map (fun c => map (cons c) (strs_exact alpha k)) alpha
  end.

Definition strs_upto (alpha : list Z) (n : nat) : list str :=
  flat_map (strs_exact alpha) (seq 0 (S n)).

Fixpoint items_eqb (a b : list ditem) : bool :=
  match a, b with
  | [], [] => true
  | x :: a', y :: b' => ditem_eqb x y && items_eqb a' b'
  | _, _ => false
  end.

(* what the rule means for the line: a rest starting with a quote admits no continuation *)
Definition eff_ds (t : str) : option (list ditem * str) :=
  let '(o, rest) := data_stmt t in
  match o with
  | None => None
  | Some its => match rest with
                | c :: _ => if c =? ch_quote then None else Some (its, rest)
                | [] => Some (its, [])
                end
  end.

Definition eff_spec (t : str) : option (list ditem * str) :=
  let sp := stmt_of_line t in
  match ss_items sp with None => None | Some its => Some (its, ss_rest sp) end.

Definition eff_eqb (a b : option (list ditem * str)) : bool :=
  match a, b with
  | None, None => true
  | Some (i1, r1), Some (i2, r2) => items_eqb i1 i2 && str_eqb r1 r2
  | _, _ => false
  end.

(* outside the two known failure classes the rule agrees with the specification *)
Definition ds_check (t : str) : bool :=
  let sp := stmt_of_line t in
  ss_inner_quote sp || ss_lone_quote sp || eff_eqb (eff_ds t) (eff_spec t).

Definition c15_alphabet : list Z := [97; 49; 32; 44; 34; 58].    (* a 1 blank , quote : *)

Lemma in_strs_exact alpha n t :
  In t (strs_exact alpha (S n)) ->
  exists c r, t = c :: r /\ In c alpha /\ In r (strs_exact alpha n).
Proof.
  simpl. rewrite in_flat_map. intros [c [Hc H]].
  apply in_map_iff in H as [r [E Hr]]. now exists c, r.
Qed.

Lemma in_strs_upto alpha n t :
  In t (strs_upto alpha n) <-> exists k, (k <= n)%nat /\ In t (strs_exact alpha k).
Proof.
  unfold strs_upto. rewrite in_flat_map. split; intros [k [H1 H2]]; exists k.
  - apply in_seq in H1. split; [lia | exact H2].
  - split; [apply in_seq; lia | exact H2].
Qed.

(* Only the texts that need it are evaluated: a leading colon ends the statement at once,
   a leading blank changes nothing, and where the re-joined tokens are the statement text
   again nothing has to be parsed. *)

Lemma ds_check_colon r : ds_check (ch_colon :: r) = true.
Proof.
  unfold ds_check, eff_ds, eff_spec, stmt_of_line, data_stmt. cbn. apply str_eqb_refl.
Qed.

Lemma span_length p s : (length (snd (span p s)) <= length s)%nat.
Proof.
  induction s as [|c s IH]; simpl; [lia|].
  destruct (p c); [|simpl; lia]. destruct (span p s). simpl in *. lia.
Qed.

Lemma drop_while_length p s : (length (drop_while p s) <= length s)%nat.
Proof. induction s as [|c s IH]; simpl; [lia|]. destruct (p c); simpl; lia. Qed.

Lemma ds_tokens_fuel f1 : forall f2 s,
  (length s < f1)%nat -> (length s < f2)%nat -> ds_tokens f1 s = ds_tokens f2 s.
Proof.
  induction f1 as [|f1 IH]; intros [|f2] s H1 H2; try lia. cbn [ds_tokens].
  pose proof (drop_while_length is_blank s) as Hd.
  destruct (drop_while is_blank s) as [|c r]; [reflexivity|]. simpl in Hd.
  destruct (c =? ch_quote).
  - pose proof (span_length not_quote r) as Hs.
    destruct (span not_quote r) as [q [|x r3]]; [reflexivity|]. simpl in Hs.
    rewrite (IH f2 r3) by lia. reflexivity.
  - destruct (unq_char c) eqn:Eu; [|reflexivity].
    pose proof (span_length unq_char r) as Hs. simpl. rewrite Eu.
    destruct (span unq_char r) as [u r2]. simpl in Hs.
    rewrite (IH f2 r2) by lia. reflexivity.
Qed.

Lemma last_ch_cons c d s : last_ch (c :: d :: s) = last_ch (d :: s).
Proof. unfold last_ch. simpl. now destruct (rev s). Qed.

Lemma ds_check_blank r : ds_check (ch_space :: r) = ds_check r.
Proof.
  assert (Hd : data_stmt (ch_space :: r) = data_stmt r).
  { unfold data_stmt.
    change (ds_tokens (S (length (ch_space :: r))) (ch_space :: r))
      with (ds_tokens (S (S (length r))) r).
    now rewrite (ds_tokens_fuel _ (S (length r)) r) by lia. }
  unfold ds_check, eff_ds, eff_spec, stmt_of_line. rewrite Hd. cbn [extent].
  change (ch_space =? ch_colon) with false. change (ch_space =? ch_comma) with false.
  change (is_blank ch_space) with true. cbv iota.
  destruct (extent XStart r) as [[x rest] iq].
  cbn [ss_inner_quote ss_lone_quote ss_items ss_rest orb].
  change (parse_data (ch_space :: x)) with (parse_data x).
  change (end_mode XStart (ch_space :: x)) with (end_mode XStart x).
  destruct x as [|d x]; [reflexivity|]. now rewrite last_ch_cons.
Qed.

Lemma parse_data_blanks x : parse_data (drop_while is_blank x) = parse_data x.
Proof.
  induction x as [|c x IH]; [reflexivity|]. simpl drop_while.
  destruct (is_blank c) eqn:E; [|reflexivity].
  rewrite IH. unfold parse_data, pd_init. cbn [pd_run pd_step]. now rewrite E.
Qed.

Lemma items_eqb_refl its : items_eqb its its = true.
Proof.
  induction its as [|[|s] its IH]; simpl; [reflexivity | exact IH |].
  now rewrite str_eqb_refl.
Qed.

(* [ds_check] with the extent and the tokens taken once.  A quote inside an unquoted item
   settles it before any token is taken; where the joined tokens are the statement text
   without its leading blanks and the rests agree, both sides parse the same text *)
Definition ds_sweep (t : str) : bool :=
  let '(x, rest, iq) := extent XStart t in
  iq ||
  let '(ts, rest') := ds_tokens (S (length t)) t in
  (str_eqb (join_sp ts) (drop_while is_blank x) && str_eqb rest' rest)
  || (match end_mode XStart x, last_ch x with XQuoted, Some c => c =? ch_quote | _, _ => false end
      || eff_eqb (match parse_data (join_sp ts) with
                  | None => None
                  | Some its => match rest' with
                                | c :: _ => if c =? ch_quote then None else Some (its, rest')
                                | [] => Some (its, [])
                                end
                  end)
                 (match parse_data x with None => None | Some its => Some (its, rest) end)).

Lemma ds_sweep_check t : ds_sweep t = true -> ds_check t = true.
Proof.
  unfold ds_sweep, ds_check, eff_ds, eff_spec, stmt_of_line, data_stmt.
  pose proof (extent_split t XStart) as Hx.
  destruct (extent XStart t) as [[x rest] iq], (ds_tokens (S (length t)) t) as [ts rest'].
  cbn [ss_inner_quote ss_lone_quote ss_items ss_rest]. destruct iq; [reflexivity|].
  destruct (str_eqb (join_sp ts) (drop_while is_blank x) && str_eqb rest' rest) eqn:H;
    [intros _ | exact (fun E => E)].
  apply andb_true_iff in H as [H1 H2]. apply str_eqb_eq in H1, H2. subst rest'.
  rewrite H1, parse_data_blanks.
  destruct (parse_data x) as [its|]; [|apply orb_true_r].
  (* the rest is empty or starts at a colon: the rule does not refuse it *)
  destruct Hx as [_ [-> | [r' ->]]]; [|change (ch_colon =? ch_quote) with false; cbv iota];
    cbn [eff_eqb]; now rewrite items_eqb_refl, str_eqb_refl, orb_true_r.
Qed.

Lemma data_stmt_sweep :
  forallb (fun r => forallb (fun c => ds_sweep (c :: r)) [97; 49; 44; 34])
          (strs_upto c15_alphabet 4) = true.
Proof. vm_compute. reflexivity. Qed.

Lemma data_stmt_matches_spec_upto5 t :
  In t (strs_upto c15_alphabet 5) -> ds_check t = true.
Proof.
  intro H. apply in_strs_upto in H as [k [Hk H]]. revert t H.
  induction k as [|k IH]; intros t H.
  - destruct H as [<-|[]]. reflexivity.
  - apply in_strs_exact in H as [c [r [-> [Hc Hr]]]].
    assert (Hs : In r (strs_upto c15_alphabet 4)).
    { apply in_strs_upto. exists k. split; [lia | exact Hr]. }
    assert (Hsw : In c [97; 49; 44; 34] -> ds_check (c :: r) = true).
    { intro Hin. apply ds_sweep_check.
      apply (proj1 (forallb_forall _ _) (proj1 (forallb_forall _ _) data_stmt_sweep r Hs) c Hin). }
    destruct Hc as [<-|[<-|[<-|[<-|[<-|[<-|[]]]]]]]; try solve [apply Hsw; simpl; auto 6].
    + apply (eq_trans (ds_check_blank r)), IH; [lia | exact Hr].
    + apply ds_check_colon.
Qed.
