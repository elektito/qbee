(* Where and why the assembler reports an error: one classification of every
   rejection ([assemble_rejects]).  For the converses: a step that fails inside
   an open block fails the text ([fails_in_block]), and the terminator without
   an opener ([unopened_iff]); Props/C05.v derives the other bracket errors. *)
From Coq Require Import ZArith List Bool.
From QV Require Import Blocks BlocksSpec BlocksProofs.
Import ListNotations.
Open Scope Z_scope.

Definition finish (stack : list frame) (cur : list tree) : result := run stack cur [].

Lemma run_err l : forall stack cur e ln,
  run stack cur l = RErr e ln ->
  (exists p x r st c, l = p ++ x :: r /\ pre_run stack cur p = SOk st c /\
                      step st c x = SErr e ln) \/
  (exists st c k o prev, pre_run stack cur l = SOk ((k, o, prev) :: st) c /\
                         e = ENotClosed k /\ ln = sl o).
Proof.
  induction l as [|s l IH]; intros stack cur e ln H; simpl in H.
  - right. destruct stack as [|[[k o] prev] st]; [discriminate|].
    inversion H; subst. exists st, cur, k, o, prev. repeat split.
  - destruct (step stack cur s) as [stack' cur'|e' ln'|] eqn:Es; try discriminate.
    + destruct (IH _ _ _ _ H) as [(p & x & r & st & c & El & Hp & Hs) | (st & c & k & o & prev & Hp & He)].
      * left. exists (s :: p), x, r, st, c. subst l. simpl. rewrite Es. auto.
      * right. exists st, c, k, o, prev. simpl. rewrite Es. auto.
    + inversion H; subst. left. exists [], s, l, stack, cur. auto.
Qed.

Lemma step_err_ender st c x e ln : step st c x = SErr e ln -> ender (sk x) <> None.
Proof.
  unfold step. destruct (opener (sk x)); [discriminate|]. destruct (ender (sk x)); discriminate.
Qed.

(* the errors raised for a child of the block, at that child *)
Definition child_err (e : berr) : bool :=
  match e with ESelectBeforeCase | ETypeIllegal | ETypeDup => true | _ => false end.

(* the shapes of a rejected text, with the error and its line: a terminator [x]
   after balanced text ([p], or [p2] back to an opener [o] that [x] does not
   fit), a child [t] of a body [b], an opener [o] with balanced text up to the
   end.  Nothing is asked of [p1], nor of [o] and [x] in rej_child. *)
Inductive rejects : list stmt -> berr -> Z -> Prop :=
| rej_unopened p x r ke :
    balanced_asm p -> ender (sk x) = Some ke ->
    rejects (p ++ x :: r) (EEndWithoutStart ke) (sl x)
| rej_wrong_end p1 o p2 x r ko ke :
    opener (sk o) = Some ko -> balanced_asm p2 -> ender (sk x) = Some ke -> ke <> ko ->
    rejects (p1 ++ o :: p2 ++ x :: r) (EExpectedEnd ko) (sl x)
| rej_next p1 o p2 x r v w :
    sk o = SFor v -> balanced_asm p2 -> sk x = SNext (Some w) -> v <> w ->
    rejects (p1 ++ o :: p2 ++ x :: r) ENextVar (sl x)
| rej_loop p1 o p2 x r :
    sk o = SDo true -> balanced_asm p2 -> sk x = SLoop true ->
    rejects (p1 ++ o :: p2 ++ x :: r) EDoLoopCond (sl x)
| rej_child p1 o b x r e t :
    child_err e = true -> In t b ->
    rejects (p1 ++ o :: flatten_forest b ++ x :: r) e (tline t)
| rej_unclosed p1 o p2 k :
    opener (sk o) = Some k -> balanced_asm p2 ->
    rejects (p1 ++ o :: p2) (ENotClosed k) (sl o).

Lemma if_scan_no_err b : forall se e ln, if_scan se b <> CErr e ln.
Proof.
  induction b as [|t b IH]; intros se e ln; simpl; [discriminate|].
  destruct t as [s|k o b' e']; [|apply IH].
  destruct (sk s); try apply IH; destruct se; try discriminate; apply IH.
Qed.

Lemma type_scan_err b : forall names e ln,
  type_scan names b = CErr e ln -> child_err e = true /\ exists t, In t b /\ tline t = ln.
Proof.
  induction b as [|t b IH]; intros names e ln H; [discriminate|].
  rewrite type_scan_cons in H.
  destruct (field_name t) as [n|]; [destruct (existsb (Z.eqb n) names)|].
  - injection H as <- <-. simpl. eauto.
  - destruct (IH _ _ _ H) as [He (t' & Hin & Hl)]. simpl. eauto.
  - injection H as <- <-. simpl. eauto.
Qed.

Lemma create_block_rejects k o x b e ln p1 r :
  create_block k o x b = CErr e ln -> Forall wfa b ->
  rejects (p1 ++ o :: flatten_forest b ++ x :: r) e ln.
Proof.
  intros H Hb. apply forest_balanced in Hb. destruct k; simpl in H; try discriminate.
  - elim (if_scan_no_err _ _ _ _ H).
  - destruct (sk o) eqn:Eo; try discriminate. destruct (sk x) eqn:Ex; try discriminate.
    destruct v0 as [w|]; try discriminate. destruct (Z.eqb_spec v w); [discriminate|].
    injection H as <- <-. apply (rej_next _ _ _ _ _ v w); assumption.
  - destruct (sk o) eqn:Eo; try discriminate. destruct c; try discriminate.
    destruct (sk x) eqn:Ex; try discriminate. destruct c; try discriminate.
    injection H as <- <-. apply rej_loop; assumption.
  - destruct b as [|t b']; [discriminate|].
    assert (E : CErr ESelectBeforeCase (tline t) = CErr e ln).
    { destruct t as [s|]; [destruct (sk s)|]; try discriminate; exact H. }
    injection E as <- <-. apply rej_child; [reflexivity | left; reflexivity].
  - apply type_scan_err in H. destruct H as [He (t & Ht & <-)]. apply rej_child; assumption.
Qed.

Lemma step_rejects st c x e ln r :
  inv st c -> step st c x = SErr e ln -> rejects (consumed st c ++ x :: r) e ln.
Proof.
  intros [Hst Hc] H. unfold step in H.
  destruct (opener (sk x)); [discriminate|].
  destruct (ender (sk x)) as [ke|] eqn:He; [|discriminate].
  destruct st as [|[[ko o] prev] st'].
  - injection H as <- <-. apply rej_unopened; [apply forest_balanced|]; assumption.
  - destruct (Forall_inv Hst) as [Ho _]. simpl. rewrite <- app_assoc. simpl.
    destruct (bkind_eqb_spec ko ke) as [<-|Hne].
    + destruct (create_block ko o x c) eqn:Ec; try discriminate.
      injection H as <- <-. apply (create_block_rejects _ _ _ _ _ _ _ _ Ec Hc).
    + injection H as <- <-. apply (rej_wrong_end _ _ _ _ _ ko ke); auto using forest_balanced.
Qed.

Theorem assemble_rejects l e ln : assemble l = RErr e ln -> rejects l e ln.
Proof.
  intros H. apply run_err in H.
  destruct H as [(p & x & r & st & c & -> & Hp & Hs) | (st & c & k & o & prev & Hp & -> & ->)];
    destruct (pre_run_sound _ _ _ _ _ Hp inv_nil) as [Hinv Hl]; simpl in Hl; subst.
  - apply step_rejects; assumption.
  - destruct Hinv as [Hst Hc]. destruct (Forall_inv Hst) as [Ho _].
    apply rej_unclosed; [|apply forest_balanced]; assumption.
Qed.

Lemma tline_in t : exists y, In y (flatten t) /\ sl y = tline t.
Proof. destruct t as [s|k o b e]; simpl; eauto. Qed.

Lemma in_forest t ts y : In t ts -> In y (flatten t) -> In y (flatten_forest ts).
Proof. intros Ht Hy. apply in_flat_map. exists t. split; assumption. Qed.

Lemma assemble_error_in_stream l e ln :
  assemble l = RErr e ln -> exists y, In y l /\ sl y = ln.
Proof.
  intros H. apply assemble_rejects in H.
  destruct H as [p x r | p1 o p2 x r | p1 o p2 x r | p1 o p2 x r | p1 o b x r e t _ Ht | p1 o p2].
  1-4: exists x; split; [|reflexivity]; rewrite ?app_comm_cons, ?app_assoc; apply in_elt.
  - destruct (tline_in t) as (y & Hy & Hl). exists y. split; [|assumption].
    apply in_or_app. right. right. apply in_or_app. left. apply (in_forest t); assumption.
  - exists o. split; [apply in_elt | reflexivity].
Qed.

Lemma inside_block p1 q o k p2 :
  balanced_asm (p1 ++ q) -> opener (sk o) = Some k -> balanced_asm p2 ->
  exists st c b, pre_run [] [] (p1 ++ o :: p2) = SOk ((k, o, c) :: st) b.
Proof.
  intros (ts & Hw & Hf) Ho (b & Hb & <-).
  pose proof (pre_run_forest ts Hw [] []) as Hp. rewrite Hf, pre_run_app in Hp.
  destruct (pre_run [] [] p1) as [st c| |] eqn:Hp1; try discriminate.
  exists st, c, b. rewrite pre_run_app, Hp1. simpl. unfold step at 1. rewrite Ho.
  apply pre_run_forest. assumption.
Qed.

Lemma failing_step p x r st c e ln :
  pre_run [] [] p = SOk st c -> step st c x = SErr e ln -> assemble (p ++ x :: r) = RErr e ln.
Proof.
  intros Hp Hs. unfold assemble. rewrite run_all, pre_run_app, Hp. simpl. rewrite Hs. reflexivity.
Qed.

Lemma fails_in_block p1 q o k p2 x r e ln :
  balanced_asm (p1 ++ q) -> opener (sk o) = Some k -> balanced_asm p2 ->
  (forall st c b, step ((k, o, c) :: st) b x = SErr e ln) ->
  assemble (p1 ++ o :: p2 ++ x :: r) = RErr e ln.
Proof.
  intros Hb Ho Hb2 Hs. destruct (inside_block _ _ _ _ _ Hb Ho Hb2) as (st & c & b & Hp).
  rewrite app_comm_cons, app_assoc. apply (failing_step _ _ _ _ _ _ _ Hp (Hs st c b)).
Qed.

Lemma unopened_iff l ke ln :
  assemble l = RErr (EEndWithoutStart ke) ln <->
  exists p x r, l = p ++ x :: r /\ sl x = ln /\ ender (sk x) = Some ke /\ balanced_asm p.
Proof.
  split.
  - intros H. apply assemble_rejects in H. inversion H; subst; try discriminate. eauto 7.
  - intros (p & x & r & -> & <- & He & ts & Hw & <-).
    apply (failing_step _ _ _ [] ts); [apply (pre_run_forest ts Hw [] [])|].
    unfold step. rewrite (ender_not_opener _ _ He), He. reflexivity.
Qed.

Lemma error_prefix_determined l e ln :
  assemble l = RErr e ln -> (forall k, e <> ENotClosed k) ->
  exists p x r, l = p ++ x :: r /\ ender (sk x) <> None /\
                forall r', assemble (p ++ x :: r') = RErr e ln.
Proof.
  intros H Hnc. apply run_err in H.
  destruct H as [(p & x & r & st & c & El & Hp & Hs) | (st & c & k & o & prev & Hp & He & Hl)].
  - exists p, x, r. split; [assumption|]. split.
    + apply (step_err_ender _ _ _ _ _ Hs).
    + intros r'. apply (failing_step _ _ _ _ _ _ _ Hp Hs).
  - elim (Hnc k He).
Qed.

Lemma rejected_never_completed p x r e ln :
  assemble (p ++ x :: r) = RErr e ln -> (forall r', assemble (p ++ x :: r') = RErr e ln) ->
  forall q, ~ balanced_asm (p ++ x :: q).
Proof.
  intros _ Hall q [ts [Hw Hf]]. pose proof (assemble_complete_asm ts Hw) as Ha.
  rewrite Hf, Hall in Ha. discriminate.
Qed.
