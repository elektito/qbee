(* The pure evaluator of Models/ExprCodegen.v (peval) IS the reference
   interpreter (Src/Sem.v eval) on pure expressions: for every interpreter
   state whose frame binds the variables of e to scalar locations holding the
   values of the environment, eval returns exactly peval's result and leaves
   the state unchanged. *)
From Coq Require Import ZArith List Bool Lia.
From QV Require Import Sx Strs Fl Cell SemBase Sem Machine Cpu ExprCodegen.
Import ListNotations.
Open Scope Z_scope.

Fixpoint to_expr (e : pexpr) : expr :=
  match e with
  | PLit c => ELit c
  | PStrLit _ s => ELit (CStr s)
  | PVar i _ => EVar i
  | PUn o a => EUn o (to_expr a)
  | PBin o l r => EBin o (to_expr l) (to_expr r)
  | PPar a => EPar (to_expr a)
  end.

Fixpoint sem_rel (rho : Z -> option cell) (s : state) (e : pexpr) : Prop :=
  match e with
  | PLit _ | PStrLit _ _ => True
  | PVar i t =>
    exists a, lookup_env i (f_env (s_frame s)) = Some (BVar a (EScalar t)) /\ 0 <= a /\
              nth_error (s_mem s) (Z.to_nat a) =
              Some (match rho i with Some c => c | None => default_of t end)
  | PUn _ a | PPar a => sem_rel rho s a
  | PBin _ l r => sem_rel rho s l /\ sem_rel rho s r
  end.

Definition res_of (r : pres cell) (s : state) : res cell :=
  match r with POk v => Ok v s | PErr e => Err e 0 s | PStuck w => Stuck w end.

Lemma lift_res (r : pres cell) s : lift r s = res_of r s.
Proof. destruct r; reflexivity. Qed.

Lemma bind_res c f (r : pres cell) g s :
  c s = res_of r s -> (forall v, f v s = res_of (g v) s) -> Sem.bind c f s = res_of (pbind r g) s.
Proof. intros Hc Hf. unfold Sem.bind. rewrite Hc. destruct r; simpl; auto. Qed.

Theorem peval_is_eval P q callf rho e :
  forall s, sem_rel rho s e ->
            eval P q callf (to_expr e) s = res_of (peval q rho e) s.
Proof.
  induction e as [c | idx s0 | i t | o a IH | o l IHl r IHr | a IH]; intros s H; simpl in H.
  - reflexivity.
  - reflexivity.
  - destruct H as [a [Hl [Ha Hn]]].
    simpl. unfold Sem.bind, resolve. rewrite Hl. simpl.
    unfold read_mem. destruct (Z.ltb_spec a 0); [lia|]. rewrite Hn.
    destruct (rho i); reflexivity.
  - apply bind_res; [exact (IH s H)|]. intro v. apply lift_res.
  - destruct H as [H1 H2].
    apply bind_res; [exact (IHl s H1)|]. intro v.
    apply bind_res; [exact (IHr s H2)|]. intro w. apply lift_res.
  - exact (IH s H).
Qed.
