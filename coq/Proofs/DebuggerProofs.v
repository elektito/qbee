(* Proofs about the debugger model (Models/Debugger.v) over the machine model.
   Main invariant: whatever the command history, the machine component is the
   state reached by [mn] applications of [tick] to the initial state, up to the
   two fields the debugger itself overwrites (halted, reason); and as long as
   the debugger never drives a finished machine ([mres] = false) it is exactly
   a prefix of the free run.  Then: where the loops behind step, next and
   continue return (machine finished or on a breakpoint) and that run() returns
   at the first such tick; last, what break and delbr do to the breakpoint list. *)
From Coq Require Import ZArith List Bool Lia.
From QV Require Import Sx Machine Cpu Debugger MachineFrame.
Import ListNotations.
Open Scope Z_scope.

Fixpoint ticks (m : module) (n : nat) (s : st) : option st :=
  match n with
  | O => Some s
  | S k => match tick m s with Next s' => ticks m k s' | _ => None end
  end.

Lemma ticks_add m a : forall b s s1, ticks m a s = Some s1 -> ticks m (a + b) s = ticks m b s1.
Proof.
  induction a; intros b s s1 H; simpl in *.
  - inversion H; reflexivity.
  - destruct (tick m s); try discriminate. apply IHa; assumption.
Qed.

Lemma ticks_prefix m n : forall j s a, ticks m n s = Some a -> (j <= n)%nat -> exists b, ticks m j s = Some b.
Proof.
  induction n; intros [|j] s a H L; try (exists s; reflexivity).
  - lia.
  - simpl in *. destruct (tick m s) as [s' | |]; try discriminate. apply (IHn j s' a H). lia.
Qed.

Lemma ticks_ext m n : forall s a, ticks m n s = Some a -> ext (events s) (events a).
Proof.
  induction n; intros s a H; simpl in *.
  - inversion H; apply ext_refl.
  - pose proof (tick_ext m s) as E. destruct (tick m s) eqn:T; try discriminate.
    eapply ext_trans; [exact E | apply IHn; exact H].
Qed.

Lemma ticks_le_ext m a b s sa sb :
  ticks m a s = Some sa -> ticks m b s = Some sb -> (a <= b)%nat -> ext (events sa) (events sb).
Proof.
  intros Ta Tb L. replace b with (a + (b - a))%nat in Tb by lia.
  rewrite (ticks_add m _ _ _ _ Ta) in Tb. exact (ticks_ext m _ _ _ Tb).
Qed.

Definition finished (m : module) (s : st) : bool := halted s || (pc s >=? code_len m).

Definition prefix_alive (m : module) (s0 : st) (n : nat) : Prop :=
  forall j sj, (j < n)%nat -> ticks m j s0 = Some sj -> finished m sj = false.

Lemma prefix_alive_snoc m s0 n sp :
  prefix_alive m s0 n -> ticks m n s0 = Some sp -> finished m sp = false -> prefix_alive m s0 (n + 1).
Proof.
  intros PA T F j sj Lj Tj. destruct (Nat.eq_dec j n) as [-> | Nj].
  - rewrite T in Tj. injection Tj as <-. exact F.
  - apply (PA j sj); [lia | exact Tj].
Qed.

Lemma alive_le m s0 n n' b :
  prefix_alive m s0 n -> ticks m n' s0 = Some b -> finished m b = true -> (n <= n')%nat.
Proof.
  intros PA T F. destruct (le_lt_dec n n') as [L | L]; [exact L |].
  rewrite (PA n' b L T) in F. discriminate.
Qed.

Section Invariant.
Variables (m : module) (s0 : st) (n0 : Z).

(* The invariant of the file head, [sp] being the state of the pure run from s0.  It also keeps
   a lower bound n0 of the tick counter, so that what preserves it never decreases the counter. *)
Definition Inv (x : mach) : Prop :=
  0 <= n0 <= mn x /\
  exists sp,
    ticks m (Z.to_nat (mn x)) s0 = Some sp /\ eqh sp (ms x) /\
    (mres x = false ->
       halted sp = halted (ms x) /\
       (halted sp = true -> reason (ms x) = reason sp \/ reason (ms x) = H_BREAKPOINT) /\
       prefix_alive m s0 (Z.to_nat (mn x))).

Definition rres_ok (r : rres) : Prop :=
  match r with
  | RDone x | RBp x _ | RFuel x => Inv x
  | RCrash _ _ | RNeedIn _ => True
  end.

(* the debugger overwrites halted/reason *)
Lemma Inv_edit x h r l res' :
  Inv x ->
  (res' = false -> mres x = false /\ h = halted (ms x) /\ (h = true -> r = H_BREAKPOINT)) ->
  Inv (mkMach (set_halt (ms x) h r) l (mn x) res').
Proof.
  intros [P [sp [T [E HS]]]] G. split; [exact P |]. exists sp. simpl.
  split; [exact T |]. split; [apply eqh_set_halt_r; exact E |].
  intros R. destruct (G R) as [G1 [-> G3]]. destruct (HS G1) as [S1 [_ S3]].
  split; [exact S1 |]. split; [| exact S3].
  intros Hh. right. apply G3. rewrite <- S1. exact Hh.
Qed.

Lemma Inv_mtick x : Inv x -> rres_ok (mtick m x).
Proof.
  intros [P [sp [T [E HS]]]]. unfold mtick.
  destruct (tick m (ms x)) as [s' | k s' | s'] eqn:Tk; simpl; try exact I.
  destruct (tick_eqh m sp (ms x) s' E Tk) as [sp' [Tp [Q HN]]].
  split; [simpl; lia |]. exists sp'. simpl.
  rewrite Z2Nat.inj_add by lia.
  split; [rewrite (ticks_add m _ _ _ _ T); simpl; rewrite Tp; reflexivity |].
  split; [exact Q |].
  intros R. apply orb_false_iff in R as [R R3]. apply orb_false_iff in R as [R1 R2].
  destruct (HS R1) as [S1 [_ S3]].
  assert (Hsp : halted sp = false) by congruence.
  destruct (HN Hsp R2) as [H2 F2].
  split; [symmetry; exact H2 |]. split.
  - intros Hh. left. rewrite (F2 Hh). reflexivity.
  - apply (prefix_alive_snoc m s0 _ sp S3 T). unfold finished.
    rewrite Hsp, (eqh_pc _ _ E), R3. reflexivity.
Qed.

Lemma run_loop_inv di bps t : forall fuel x,
  Inv x -> rres_ok (run_loop m di bps t fuel x).
Proof.
  induction fuel; intros x HI; simpl; [exact HI |].
  destruct (halted (ms x)) eqn:Hh; [exact HI |].
  destruct (pc (ms x) >=? code_len m).
  - apply (Inv_edit x _ _ _ _ HI). intros R. split; [exact R |]. split; [symmetry; exact Hh | discriminate].
  - pose proof (Inv_mtick x HI) as HM.
    destruct (mtick m x) as [x' | x' h | k x' | x' | x']; simpl in *; try exact HM.
    destruct (check_bps m di bps t (ms x')) as [[h|] | k]; simpl.
    + apply (Inv_edit x' _ _ _ _ HM). auto.
    + apply IHfuel. exact HM.
    + exact I.
Qed.

Lemma cpu_run_inv di bps t fuel x :
  Inv x -> rres_ok (cpu_run m di bps t fuel x).
Proof.
  intros HI. apply run_loop_inv, (Inv_edit x _ _ _ _ HI).
  intros R. apply orb_false_iff in R as [R1 R2]. split; [exact R1 |]. split; [congruence | discriminate].
Qed.

(* cpu.next(): a host exception before any tick, one tick, or, on a call, a run to its return address *)
Lemma cpu_next_cases (P : rres -> Prop) di bps fuel x :
  (forall k, P (RCrash k x)) -> P (mtick m x) ->
  (forall a, P (match cpu_run m di bps (TNext a) fuel x with RBp x' HitTemp => RDone x' | r => r end)) ->
  P (cpu_next m di bps fuel x).
Proof.
  intros Hc Ht Hr. unfold cpu_next.
  destruct (_ || _); [apply Hc |].
  destruct (decode _) as [| | i size]; try apply Hc.
  destruct i; try exact Ht; [apply Hr | destruct (nthZ _ _); [exact Ht | apply Hc]].
Qed.

Lemma cpu_next_inv di bps fuel x :
  Inv x -> rres_ok (cpu_next m di bps fuel x).
Proof.
  intros HI. apply cpu_next_cases; [intro; exact I | apply Inv_mtick; exact HI |].
  intros a. pose proof (cpu_run_inv di bps (TNext a) fuel x HI) as HR.
  destruct (cpu_run _ _ _ _ _ _) as [x' | x' [b|] | | |]; exact HR.
Qed.

Lemma next_loop_inv di bps stmt fuel0 : forall fuel x,
  Inv x -> rres_ok (next_loop m di bps stmt fuel0 fuel x).
Proof.
  induction fuel; intros x HI; simpl; [exact HI |].
  destruct (halted (ms x)); [exact HI |].
  pose proof (cpu_next_inv di bps fuel0 x HI) as HN.
  destruct (cpu_next m di bps fuel0 x) as [x' | x' h | k x' | x' | x']; simpl in *; try exact HN.
  destruct (find_nonempty m di (pc (ms x'))); [| exact I].
  destruct (stmt_neq a stmt); [exact HN | apply IHfuel; exact HN].
Qed.

Lemma start_loop_inv di : forall fuel x,
  Inv x -> rres_ok (start_loop m di fuel x).
Proof.
  induction fuel; intros x HI; simpl; [exact HI |].
  destruct (halted (ms x)); [exact HI |].
  destruct (dfind_stmt m di (pc (ms x))) as [[r|] | k]; try exact HI; [| exact I].
  pose proof (Inv_mtick x HI) as HM.
  destruct (mtick m x) as [x' | x' h | k x' | x' | x']; simpl in *; try exact HM.
  apply IHfuel; exact HM.
Qed.

Definition dInv (d : dbg) : Prop :=
  d_status d = Live -> Inv (d_m d).

Lemma finish_inv d r b : rres_ok r -> dInv (finish d r b).
Proof.
  intros H. unfold dInv, finish.
  destruct r as [x | x [a|] | k x | x | x]; simpl; intros L; try discriminate; exact H.
Qed.

Lemma exec_cmd_inv di fuel d c : dInv d -> dInv (exec_cmd m di fuel d c).
Proof.
  intros HD. unfold exec_cmd.
  destruct (d_status d) eqn:Es; try exact HD.
  specialize (HD Es).
  assert (Hsame : forall bp st ms_, dInv (mkDbg (d_m d) bp st ms_)) by (intros; intro; exact HD).
  destruct c; try (destruct (blocked (d_st d)); [apply Hsame |]).
  - unfold do_step. destruct (find_nonempty _ _ _); [apply finish_inv, cpu_run_inv, HD | apply Hsame].
  - unfold do_next. destruct (find_nonempty _ _ _); [apply finish_inv, next_loop_inv, HD | apply Hsame].
  - apply finish_inv, Inv_mtick, HD.
  - apply finish_inv, cpu_next_inv, HD.
  - apply finish_inv, cpu_run_inv, HD.
  - unfold do_break. destruct (l <? 0); [| destruct (resolve_line di l)]; apply Hsame.
  - unfold do_delbr.
    destruct (l <? 0); [| destruct (resolve_line di l); [destruct (existsb _ _) |]]; apply Hsame.
Qed.

Lemma exec_cmds_inv di fuel : forall h d,
  dInv d -> dInv (exec_cmds m di fuel d h).
Proof.
  induction h as [|c h IH]; intros d HD; simpl; [exact HD |].
  apply IH. apply exec_cmd_inv. exact HD.
Qed.

End Invariant.

(* load_instructions leaves the machine alone when the code decodes linearly
   (no unknown opcode met by the linear sweep); true of every compiled module *)
Fixpoint sweep_clean (m : module) (fuel : nat) (addr : Z) : bool :=
  match fuel with
  | O => true
  | S f =>
    if addr >=? code_len m then true
    else
      match decode (skipn (Z.to_nat addr) (m_code m)) with
      | DOk (IPushStr idx) size =>
        match nthZ (m_literals m) idx with Some _ => sweep_clean m f (addr + size) | None => true end
      | DOk _ size => sweep_clean m f (addr + size)
      | DUnknown => false
      | DTrunc => true
      end
  end.

Definition loads_clean (m : module) : bool := sweep_clean m (S (length (m_code m))) 0.

Lemma sweep_clean_ok m s : forall fuel addr,
  sweep_clean m fuel addr = true ->
  match sweep m fuel addr s with Next s' => s' = s | _ => True end.
Proof.
  induction fuel; intros addr H; simpl in *; [reflexivity |].
  destruct (addr >=? code_len m); [reflexivity |].
  destruct (decode _) as [| | i size]; try discriminate; try exact I.
  rewrite pushstr_case in *. destruct (no_literal m i); [exact I | apply IHfuel; exact H].
Qed.

Lemma Inv_init m s0 : Inv m s0 0 (mkMach s0 None 0 false).
Proof.
  split; [simpl; lia |]. exists s0. simpl. split; [reflexivity |]. split; [apply eqh_refl |].
  intros _. split; [reflexivity |]. split; [intros _; left; reflexivity |].
  intros j sj L. lia.
Qed.

Lemma start_inv m di fuel s0 : loads_clean m = true -> dInv m s0 0 (start m di fuel s0).
Proof.
  unfold loads_clean, start. intros C.
  pose proof (sweep_clean_ok m s0 _ _ C) as HS.
  destruct (sweep m (S (length (m_code m))) 0 s0) as [s | k s | s]; try (intro L; discriminate).
  subst s.
  destruct (negb (pc s0 =? 0)); [intro L; discriminate |].
  pose proof (start_loop_inv m s0 0 di fuel _ (Inv_init m s0)) as HL.
  destruct (start_loop _ _ _ _) as [x | x h | k x | x | x]; [intro L; exact HL | ..]; apply finish_inv, HL.
Qed.

Lemma session_inv m di sc fuel h :
  loads_clean m = true -> dInv m (init_state m sc) 0 (session m di sc fuel h).
Proof. intros C. apply exec_cmds_inv, start_inv, C. Qed.

(* the free run (Cpu.run) in terms of ticks *)
Lemma run_spec m : forall fuel s k sf N,
  run m fuel s k = (sf, StHalt, N) ->
  exists n, ticks m n s = Some sf /\ N = k + Z.of_nat n /\ finished m sf = true /\ prefix_alive m s n.
Proof.
  induction fuel; intros s k sf N H; simpl in H; [discriminate |].
  fold (finished m s) in H. destruct (finished m s) eqn:F.
  - injection H as <- <-. exists O. split; [reflexivity |]. split; [lia |]. split; [exact F |].
    intros j sj L. lia.
  - destruct (tick m s) as [s' | |] eqn:T; try discriminate.
    destruct (IHfuel s' (k + 1) sf N H) as [n [T' [EN [F' PA]]]].
    exists (S n). simpl. rewrite T. split; [exact T' |]. split; [lia |]. split; [exact F' |].
    intros [|j] sj L Tj; simpl in Tj.
    + injection Tj as <-. exact F.
    + rewrite T in Tj. apply (PA j sj); [lia | exact Tj].
Qed.

Lemma commands_only_tick m di sc fuel h :
  loads_clean m = true ->
  let d := session m di sc fuel h in
  d_status d = Live ->
  exists sp, ticks m (Z.to_nat (mn (d_m d))) (init_state m sc) = Some sp /\
             set_halt sp false 0 = set_halt (d_st d) false 0.
Proof.
  intros C d L. destruct (session_inv m di sc fuel h C L) as [_ [sp [T [E _]]]].
  exists sp. split; [exact T | exact E].
Qed.

Lemma Inv_prefix_of_free_run m s0 n0 x fuel sf N :
  Inv m s0 n0 x -> mres x = false -> run m fuel s0 0 = (sf, StHalt, N) ->
  mn x <= N /\ ext (events (ms x)) (events sf).
Proof.
  intros [P [sp [T [E HS]]]] R HR. destruct (HS R) as [_ [_ PA]].
  destruct (run_spec m fuel _ 0 sf N HR) as [n [Tn [EN [Fn _]]]].
  pose proof (alive_le m _ _ _ _ PA Tn Fn) as Le.
  split; [lia |]. rewrite <- (eqh_events _ _ E). exact (ticks_le_ext m _ _ _ _ _ T Tn Le).
Qed.

Lemma transparent m di sc fuel h fuel' sf N :
  loads_clean m = true ->
  let d := session m di sc fuel h in
  d_status d = Live -> mres (d_m d) = false -> halted (d_st d) = true ->
  run m fuel' (init_state m sc) 0 = (sf, StHalt, N) ->
  set_halt (d_st d) true 0 = set_halt sf true 0 /\
  halted sf = true /\
  (reason (d_st d) = reason sf \/ reason (d_st d) = H_BREAKPOINT) /\
  events (d_st d) = events sf /\
  mn (d_m d) = N.
Proof.
  intros C d L R Hh HR.
  destruct (session_inv m di sc fuel h C L : Inv _ _ _ (d_m d)) as [P [sp [T [E HS]]]].
  destruct (HS R) as [S1 [S2 S3]].
  assert (Hsp : halted sp = true) by (rewrite S1; exact Hh).
  destruct (run_spec m fuel' _ 0 sf N HR) as [n [Tn [EN [Fn PAn]]]].
  assert (Fsp : finished m sp = true) by (unfold finished; rewrite Hsp; reflexivity).
  assert (En : n = Z.to_nat (mn (d_m d))) by
    (apply Nat.le_antisymm; [exact (alive_le m _ _ _ _ PAn T Fsp) | exact (alive_le m _ _ _ _ S3 Tn Fn)]).
  subst n. rewrite T in Tn. injection Tn as <-.
  split; [| split; [| split; [| split]]].
  - symmetry. exact (f_equal (fun s => set_halt s true 0) E).
  - exact Hsp.
  - exact (S2 Hsp).
  - symmetry. exact (eqh_events _ _ E).
  - lia.
Qed.

Lemma exec_cmd_live m di fuel d c : d_status (exec_cmd m di fuel d c) = Live -> d_status d = Live.
Proof. unfold exec_cmd. destruct (d_status d) eqn:E; congruence. Qed.

Lemma exec_cmd_chain m di fuel s0 n0 d c :
  dInv m s0 n0 d ->
  let d' := exec_cmd m di fuel d c in
  d_status d' = Live ->
  mn (d_m d) <= mn (d_m d') /\ ext (events (d_st d)) (events (d_st d')).
Proof.
  intros HD d' L'. destruct (HD (exec_cmd_live m di fuel d c L')) as [P HI].
  (* the command keeps the invariant with the present counter as the lower bound *)
  assert (HI' : dInv m s0 (mn (d_m d)) d') by
    (apply exec_cmd_inv; intros _; split; [lia | exact HI]).
  destruct HI as [sp [T [E _]]]. destruct (HI' L') as [P' [sp' [T' [E' _]]]].
  split; [lia |]. unfold d_st. rewrite <- (eqh_events _ _ E), <- (eqh_events _ _ E').
  apply (ticks_le_ext m _ _ _ _ _ T T'). lia.
Qed.

Section Stops.
Variables (m : module) (di : dbginfo) (bps : list Z).

Definition temp_hit (t : tbp) (s : st) : Prop :=
  match t with
  | TNoTemp => False
  | TNext a => pc s = a
  | TStep stmt => exists r, find_nonempty m di (pc s) = Ok (Some r) /\ stmt_neq (Some r) stmt = true
  end.

Definition hit_ok (t : tbp) (s : st) (h : hit) : Prop :=
  match h with
  | HitUser a => pc s = a /\ In a bps
  | HitTemp => temp_hit t s
  end.

Definition stop_ok (t : tbp) (Q : mach -> Prop) (r : rres) : Prop :=
  match r with
  | RDone x' => Q x'
  | RBp x' h => hit_ok t (ms x') h /\ mlast x' = Some h
  | _ => True
  end.

Lemma check_bps_spec t s h :
  check_bps m di bps t s = Ok (Some h) -> hit_ok t s h.
Proof.
  unfold check_bps, user_hit. destruct (find _ bps) as [a|] eqn:U.
  - intros [= <-]. apply find_some in U as [U1 U2]. split; [apply Z.eqb_eq; exact U2 | exact U1].
  - destruct t as [| stmt | a].
    + discriminate.
    + destruct (find_nonempty m di (pc s)) as [[r|] | k] eqn:F; try discriminate.
      destruct stmt as [r0|]; simpl.
      * destruct (rec_eqb r r0) eqn:Q; [discriminate |]. intros [= <-].
        exists r. simpl. rewrite Q. split; [exact F | reflexivity].
      * intros [= <-]. exists r. split; [exact F | reflexivity].
    + destruct (pc s =? a) eqn:Q; [| discriminate]. intros [= <-]. apply Z.eqb_eq. exact Q.
Qed.

Lemma check_bps_none t s : check_bps m di bps t s = Ok None -> user_hit bps (pc s) = None.
Proof. unfold check_bps. destruct (user_hit bps (pc s)); [discriminate | reflexivity]. Qed.

Lemma run_loop_stop t : forall fuel x,
  stop_ok t (fun x' => finished m (ms x') = true) (run_loop m di bps t fuel x).
Proof.
  induction fuel; intros x; simpl; [exact I |]. unfold mtick.
  destruct (halted (ms x)) eqn:Hh; [simpl; unfold finished; rewrite Hh; reflexivity |].
  destruct (pc (ms x) >=? code_len m) eqn:Hp; [simpl; unfold finished; simpl; rewrite Hp; reflexivity |].
  destruct (tick m (ms x)) as [s' | |]; simpl; try exact I.
  destruct (check_bps m di bps t s') as [[h|] | k] eqn:C; simpl; try exact I.
  - split; [exact (check_bps_spec t s' h C) | reflexivity].
  - apply IHfuel.
Qed.

Lemma cpu_run_stop t fuel x :
  stop_ok t (fun x' => finished m (ms x') = true) (cpu_run m di bps t fuel x).
Proof. apply run_loop_stop. Qed.

(* next() stops early only on a user breakpoint *)
Lemma cpu_next_stop fuel x : stop_ok TNoTemp (fun _ => True) (cpu_next m di bps fuel x).
Proof.
  apply cpu_next_cases; [intro; exact I | unfold mtick; destruct (tick _ _); exact I |].
  intros a. pose proof (cpu_run_stop (TNext a) fuel x) as S.
  destruct (cpu_run _ _ _ _ _ _) as [x' | x' [b|] | | |]; try exact I. exact S.
Qed.

Lemma next_loop_stop stmt fuel0 : forall fuel x,
  stop_ok TNoTemp
    (fun x' => halted (ms x') = true \/
               exists new, find_nonempty m di (pc (ms x')) = Ok new /\ stmt_neq new stmt = true)
    (next_loop m di bps stmt fuel0 fuel x).
Proof.
  induction fuel; intros x; simpl; [exact I |].
  destruct (halted (ms x)) eqn:Hh; [left; exact Hh |].
  pose proof (cpu_next_stop fuel0 x) as S.
  destruct (cpu_next m di bps fuel0 x) as [x' | x' h | k x' | x' | x']; try exact S.
  destruct (find_nonempty m di (pc (ms x'))) as [new | k] eqn:F; [| exact I].
  destruct (stmt_neq new stmt) eqn:Q; [| apply IHfuel].
  right. exists new. split; assumption.
Qed.

Lemma finish_stop t Q d r b :
  stop_ok t Q r ->
  let d' := finish d r b in
  d_status d' = Live ->
  Q (d_m d') /\ d_msgs d' = [] \/
  In (pc (d_st d')) bps /\ d_msgs d' = (if b then [MHit] else []) /\
    mlast (d_m d') = Some (HitUser (pc (d_st d'))) \/
  temp_hit t (d_st d').
Proof.
  intros S d' L. destruct r as [x | x [a|] | k x | x | x]; try discriminate L.
  - left. split; [exact S | reflexivity].
  - right. left. destruct S as [[<- U] ML]. split; [exact U | split; [reflexivity | exact ML]].
  - right. right. apply S.
Qed.

End Stops.

Lemma step_progress m di fuel d stmt :
  d_status d = Live -> blocked (d_st d) = false ->
  find_nonempty m di (pc (d_st d)) = Ok stmt ->
  let d' := exec_cmd m di fuel d CStep in
  d_status d' = Live ->
  finished m (d_st d') = true \/
  In (pc (d_st d')) (d_bps d) \/
  exists r, find_nonempty m di (pc (d_st d')) = Ok (Some r) /\ stmt_neq (Some r) stmt = true.
Proof.
  intros L B F d' L'. unfold d', exec_cmd, do_step in *. rewrite L, B, F in *.
  destruct (finish_stop m di _ _ _ d _ true (cpu_run_stop m di (d_bps d) (TStep stmt) fuel (d_m d)) L')
    as [[S _] | [[S _] | S]]; auto.
Qed.

(* concrete witnesses: modules produced by the real compiler, -O0 -g *)

(* CALL down(2)
   PRINT "back"
   SUB down(n%)
   IF n% > 0 THEN
   PRINT n%
   CALL down(n% - 1)
   PRINT "up"; n%
   END IF
   END SUB
   D25: after four steps the program stands at line 6 (CALL down(n% - 1)) in the
   activation n% = 2; next returns at line 7 inside the activation n% = 1: one
   frame deeper, machine running, no user breakpoint involved. *)
Definition wit_code : list Z :=
  [5; 0; 0; 0; 6; 100; 23; 0; 0; 0; 0; 60; 5; 0; 0; 0; 26; 52; 43; 0; 0; 60; 27; 2; 2; 91; 23; 0; 1; 0; 0;
   77; 0; 0; 18; 52; 105; 102; 29; 0; 0; 0; 84; 52; 77; 0; 0; 18; 60; 27; 2; 2; 77; 0; 0; 18; 56; 93; 5;
   0; 0; 0; 26; 52; 43; 0; 1; 56; 52; 77; 0; 0; 18; 39; 0; 5; 27; 2; 2; 28; 0; 0; 0; 84; 91].
Definition wit_literals : list str := [[98; 97; 99; 107]; [117; 112]].
Definition wit_stmts : list (Z * Z) :=
  [(11, 17); (17, 25); (26, 31); (31, 43); (43, 52); (52, 63); (63, 79); (79, 84); (84, 85)].
Definition wit_di : dbginfo :=
  [mkRec 11 17 1 0 0; mkRec 17 25 2 13 1; mkRec 26 31 3 26 2; mkRec 31 43 4 39 3; mkRec 43 52 5 54 4;
   mkRec 52 63 6 63 5; mkRec 63 79 7 81 6; mkRec 79 84 8 96 7; mkRec 84 85 9 103 8].
Definition wit_module : module := mkModule wit_code wit_literals [] 0 (Some wit_stmts).
Definition no_script : script := mkScript [] [] [] [].
Definition wit_fuel : nat := Z.to_nat 2000.

(* PRINT 1
   x% = 1
   y% = x% \ (x% - 1)
   PRINT 2
   PRINT 3
   D25c: the free run prints once and halts with a trap; continue; continue
   resumes behind the trapping instruction and prints three times. *)
Definition wit2_code : list Z :=
  [5; 0; 0; 0; 6; 100; 23; 0; 0; 0; 2; 52; 56; 60; 27; 2; 2; 56; 95; 0; 0; 72; 0; 0; 72; 0; 0; 56; 93; 25;
   95; 0; 1; 52; 60; 60; 27; 2; 2; 52; 39; 0; 3; 60; 27; 2; 2; 91].
Definition wit2_stmts : list (Z * Z) := [(11, 17); (17, 21); (21, 33); (33, 39); (39, 47)].
Definition wit2_di : dbginfo :=
  [mkRec 11 17 1 0 0; mkRec 17 21 2 8 1; mkRec 21 33 3 15 2; mkRec 33 39 4 34 3; mkRec 39 47 5 42 4].
Definition wit2_module : module := mkModule wit2_code [] [] 0 (Some wit2_stmts).

(* non-vacuity of the guarded theorems: a session that steps, sets and hits a
   breakpoint and runs to the end without ever driving a finished machine *)
Lemma session_example :
  let d := session wit_module wit_di no_script wit_fuel [CStep; CBreak 7; CContinue; CContinue; CDelbr 7; CNext; CContinue] in
  d_status d = Live /\ mres (d_m d) = false /\ halted (d_st d) = true /\ reason (d_st d) = H_INSTRUCTION /\
  d_bps d = [] /\ length (events (d_st d)) = 5%nat.
Proof. vm_compute. repeat split; reflexivity. Qed.

Definition rstate (r : rres) : mach :=
  match r with RDone x | RBp x _ | RCrash _ x | RNeedIn x | RFuel x => x end.

Lemma finish_m d r b : d_m (finish d r b) = rstate r.
Proof. destruct r as [x | x [a|] | k x | x | x]; reflexivity. Qed.

(* run() returns at the FIRST tick after which a breakpoint predicate holds or the machine is
   halted: the states strictly between entry and return are running and hit nothing *)
Lemma run_loop_first m di bps t : forall fuel x k sk,
  Z.of_nat k < mn (rstate (run_loop m di bps t fuel x)) - mn x ->
  ticks m k (ms x) = Some sk ->
  halted sk = false /\ ((0 < k)%nat -> check_bps m di bps t sk = Ok None).
Proof.
  induction fuel; intros x k sk L T; revert L; simpl; [lia |].
  destruct (halted (ms x)) eqn:Hh; [simpl; lia |].
  destruct (pc (ms x) >=? code_len m); [simpl; lia |].
  destruct k as [|k]; [injection T as <-; split; [exact Hh | lia] |].
  unfold mtick. simpl in T. destruct (tick m (ms x)) as [s' | |]; try discriminate T; simpl.
  destruct (check_bps m di bps t s') as [[h|] | c] eqn:C; simpl; try lia.
  intros L. set (x' := with_st _ s') in L.
  destruct (IHfuel x' k sk) as [Q1 Q2]; [simpl; lia | exact T |]. split; [exact Q1 |].
  intros _. destruct k; [injection T as <-; exact C | apply Q2; lia].
Qed.

Lemma step_first_change m di fuel d stmt :
  d_status d = Live -> blocked (d_st d) = false ->
  find_nonempty m di (pc (d_st d)) = Ok (Some stmt) ->
  let d' := exec_cmd m di fuel d CStep in
  forall k sk, (0 < k)%nat -> Z.of_nat k < mn (d_m d') - mn (d_m d) ->
  ticks m k (set_halt (d_st d) false H_NONE) = Some sk ->
  user_hit (d_bps d) (pc sk) = None /\ halted sk = false /\
  (find_nonempty m di (pc sk) = Ok None \/
   exists r, find_nonempty m di (pc sk) = Ok (Some r) /\ rec_eqb r stmt = true).
Proof.
  intros L B F d' k sk K Lk T. unfold d', exec_cmd, do_step in Lk. rewrite L, B, F, finish_m in Lk.
  destruct (run_loop_first m di (d_bps d) (TStep (Some stmt)) fuel _ k sk Lk T) as [Q2 Q1].
  specialize (Q1 K). unfold check_bps in Q1.
  destruct (user_hit (d_bps d) (pc sk)); [discriminate |]. split; [reflexivity |]. split; [exact Q2 |].
  destruct (find_nonempty m di (pc sk)) as [[r|] | c]; try discriminate.
  - right. exists r. split; [reflexivity |]. destruct (rec_eqb r stmt); [reflexivity | discriminate].
  - left. reflexivity.
Qed.

(* break and delbr.  From here on lia is also given the boolean comparisons; above, the boolean
   hypotheses of the loops and of the invariant would make every call of it dear. *)
From Coq Require Import ZifyBool.

Lemma remove_first_count a b l :
  count_occ Z.eq_dec (remove_first a l) b =
  if Z.eq_dec a b then pred (count_occ Z.eq_dec l b) else count_occ Z.eq_dec l b.
Proof.
  induction l as [|x l IH]; simpl; [destruct (Z.eq_dec a b); reflexivity |].
  destruct (Z.eqb_spec x a) as [-> | N]; simpl; [destruct (Z.eq_dec a b); reflexivity |].
  rewrite IH. destruct (Z.eq_dec x b), (Z.eq_dec a b); congruence.
Qed.

Lemma delbr_removes m fuel di l d r :
  d_status d = Live -> 0 <= l -> resolve_line di l = Some r ->
  let d' := exec_cmd m di fuel d (CDelbr l) in
  let a := r_start r in
  count_occ Z.eq_dec (d_bps d') a = pred (count_occ Z.eq_dec (d_bps d) a) /\
  (forall b, b <> a -> count_occ Z.eq_dec (d_bps d') b = count_occ Z.eq_dec (d_bps d) b) /\
  d_m d' = d_m d.
Proof.
  intros L P R d' a. subst d' a. unfold exec_cmd, do_delbr. rewrite L, (proj2 (Z.ltb_ge l 0) P), R.
  destruct (existsb _ (d_bps d)) eqn:X; simpl.
  - split; [rewrite remove_first_count; destruct (Z.eq_dec _ _); congruence |].
    split; [| reflexivity].
    intros b N. rewrite remove_first_count. destruct (Z.eq_dec _ _); congruence.
  - split; [| split; reflexivity].
    rewrite (proj1 (count_occ_not_In Z.eq_dec (d_bps d) (r_start r))); [reflexivity |].
    intros I. rewrite (proj2 (existsb_exists _ _)) in X by (eexists; split; [exact I | apply Z.eqb_refl]).
    discriminate.
Qed.

Lemma insert_soff_in r l x : In x (insert_soff r l) <-> In x l \/ r = x.
Proof.
  induction l as [|y l IH]; simpl; [apply or_comm |].
  destruct (r_soff r <? r_soff y); simpl; [apply or_comm |]. rewrite IH. symmetry. apply or_assoc.
Qed.

Lemma sort_soff_in di x : In x (sort_soff di) <-> In x di.
Proof.
  unfold sort_soff.
  enough (G : forall acc, In x (fold_left (fun acc r => insert_soff r acc) di acc) <-> In x acc \/ In x di)
    by (rewrite G; simpl; tauto).
  induction di as [|r di IH]; intros acc; simpl; [tauto |]. rewrite IH, insert_soff_in. apply or_assoc.
Qed.

Fixpoint sorted_soff (l : list srec) : Prop :=
  match l with
  | [] => True
  | x :: t => (forall y, In y t -> r_soff x <= r_soff y) /\ sorted_soff t
  end.

Lemma insert_soff_sorted r l : sorted_soff l -> sorted_soff (insert_soff r l).
Proof.
  induction l as [|y l IH]; simpl; intros S.
  - split; [intros ? [] | exact I].
  - destruct S as [S1 S2]. destruct (r_soff r <? r_soff y) eqn:Q; simpl.
    + split; [| split; assumption].
      intros z [-> | Hz]; [lia | specialize (S1 z Hz); lia].
    + split; [| apply IH; exact S2].
      intros z Hz. apply insert_soff_in in Hz. destruct Hz as [Hz | <-]; [apply S1; exact Hz | lia].
Qed.

Lemma sort_soff_sorted di : sorted_soff (sort_soff di).
Proof.
  unfold sort_soff. generalize (I : sorted_soff []). generalize (@nil srec).
  induction di as [|r di IH]; intros acc S; simpl; [exact S |]. apply IH, insert_soff_sorted, S.
Qed.

Lemma find_sorted_first f l r : sorted_soff l -> find f l = Some r ->
  In r l /\ f r = true /\ forall y, In y l -> f y = true -> r_soff r <= r_soff y.
Proof.
  induction l as [|x l IH]; simpl; intros S H; [discriminate |].
  destruct S as [S1 S2]. destruct (f x) eqn:Fx.
  - inversion H; subst. split; [left; reflexivity |]. split; [exact Fx |].
    intros y [-> | Hy] _; [lia | apply S1; exact Hy].
  - destruct (IH S2 H) as [I1 [I2 I3]]. split; [right; exact I1 |]. split; [exact I2 |].
    intros y [-> | Hy] Fy; [congruence | apply I3; assumption].
Qed.

Lemma resolve_line_spec di l r :
  resolve_line di l = Some r ->
  In r di /\ l <= r_line r /\ 0 < rec_size r /\
  forall y, In y di -> l <= r_line y -> 0 < rec_size y -> r_soff r <= r_soff y.
Proof.
  unfold resolve_line. intros H.
  destruct (find_sorted_first _ _ _ (sort_soff_sorted di) H) as [I1 [I2 I3]].
  split; [apply sort_soff_in; exact I1 |]. split; [lia |]. split; [lia |].
  intros y Iy Ly Sy. apply I3; [apply sort_soff_in; exact Iy | lia].
Qed.
