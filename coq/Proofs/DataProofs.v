(* C15, device and program part: READ delivers the items in source order,
   RESTORE label positions exactly (where the code supports it), the grouping
   of DATA statements by "last label seen" keeps the source order. *)
From Coq Require Import ZArith List Bool Lia.
From QV Require Import Sx Strs Fl NumFmt Cell DataText DataDev DataSpec.
From QV Require Export DataTextProofs.
Import ListNotations.
Open Scope Z_scope.

Lemma skipn_nth_error {A} (l : list A) n :
  skipn n l = match nth_error l n with Some x => x :: skipn (S n) l | None => [] end.
Proof.
  revert l; induction n as [|n IH]; intros [|a l]; try reflexivity. apply (IH l).
Qed.

Lemma py_nth_nat {A} (l : list A) (n : nat) : py_nth l (Z.of_nat n) = nth_error l n.
Proof.
  unfold py_nth, zlen. rewrite (proj2 (Z.leb_le 0 _) (Nat2Z.is_nonneg n)). cbn [andb].
  destruct (Z.ltb_spec (Z.of_nat n) (Z.of_nat (length l))) as [H|H].
  - now rewrite Nat2Z.id.
  - rewrite (proj2 (Z.ltb_ge _ 0) (Nat2Z.is_nonneg n)), andb_false_r.
    symmetry. apply nth_error_None. lia.
Qed.

(* the device stands at a legal cursor, inside a part or just after the last part, and has
   exactly these items still to deliver, in this order *)
Inductive at_pos (d : dparts) : cursor -> list ditem -> Prop :=
| at_in p i :
    (p < length d)%nat -> (i < length (nth p d []))%nat ->
    at_pos d (Z.of_nat p, Z.of_nat i) (skipn i (nth p d []) ++ concat (skipn (S p) d))
| at_end : at_pos d (Z.of_nat (length d), 0) [].

Definition str_cell (it : ditem) : cell :=
  match it with DEmpty => CStr [] | DItem s => CStr s end.

Definition next_read (ty : Z) (rest : list ditem) : rres :=
  match rest with [] => RDevErr 4 | it :: _ => convert ty it end.

Lemma convert_str it : convert 5 it = RVal (str_cell it).
Proof. destruct it; reflexivity. Qed.

Lemma convert_typed ty it : (1 <=? ty) && (ty <=? 5) = true -> convert ty it <> RAssert.
Proof.
  intro H. apply andb_true_iff in H as [H1 H5]. apply Z.leb_le in H1, H5.
  assert (E : ty = 1 \/ ty = 2 \/ ty = 3 \/ ty = 4 \/ ty = 5) by lia.
  destruct E as [->|[->|[->|[->| ->]]]]; unfold convert; destruct it as [|s];
    try discriminate.
  - destruct (py_int s); [destruct (in_int z)|]; discriminate.
  - destruct (py_int s); [destruct (in_long z)|]; discriminate.
  - destruct (py_float s); [destruct (to_single f)|]; discriminate.
  - destruct (py_float s); discriminate.
Qed.

Section Device.
  Variable d : dparts.
  Hypothesis Hne : parts_nonempty d = true.

  Lemma at_part_start k : (k <= length d)%nat -> at_pos d (Z.of_nat k, 0) (concat (skipn k d)).
  Proof.
    intro Hk. destruct (Nat.eq_dec k (length d)) as [->|Hn]; [rewrite skipn_all; apply at_end|].
    assert (Hlt : (k < length d)%nat) by lia.
    rewrite skipn_nth_error, (nth_error_nth' d [] Hlt). apply (at_in d k 0 Hlt).
    pose proof (proj1 (forallb_forall _ d) Hne _ (nth_In d [] Hlt)) as H.
    destruct (nth k d []); [discriminate | simpl; lia].
  Qed.

  Lemma at_start : at_pos d cur_init (concat d).
  Proof. apply (at_part_start 0). lia. Qed.

  Lemma exec_read_at cur rest ty :
    at_pos d cur rest ->
    exists cur', at_pos d cur' (tl rest) /\
      exec_read d cur ty
      = (next_read ty rest, match next_read ty rest with RVal _ => cur' | _ => cur end).
  Proof.
    intros [p i Hp Hi|].
    - set (part := nth p d []) in *.
      rewrite (skipn_nth_error part i), (nth_error_nth' part DEmpty Hi). cbn [app tl next_read].
      unfold exec_read. rewrite py_nth_nat, (nth_error_nth' d [] Hp). fold part.
      rewrite py_nth_nat, (nth_error_nth' part DEmpty Hi). unfold zlen.
      destruct (Z.geb_spec (Z.of_nat i + 1) (Z.of_nat (length part))) as [Eg|Eg].
      + exists (Z.of_nat (S p), 0). split.
        * rewrite skipn_all2 by lia. apply at_part_start. lia.
        * rewrite Nat2Z.inj_succ. now destruct (convert ty _).
      + exists (Z.of_nat p, Z.of_nat (S i)). split.
        * apply (at_in d p (S i) Hp). fold part. lia.
        * rewrite Nat2Z.inj_succ. now destruct (convert ty _).
    - exists (Z.of_nat (length d), 0). split; [apply at_end|].
      unfold exec_read. now rewrite py_nth_nat, (proj2 (nth_error_None d (length d))) by lia.
  Qed.

  Lemma run_ops_read cur rest ty code :
    at_pos d cur rest ->
    exists cur', at_pos d cur' (tl rest) /\
      run_ops d cur (DRead ty :: code)
      = match next_read ty rest with
        | RVal c => (c :: fst (run_ops d cur' code), snd (run_ops d cur' code))
        | r => ([], ETrap r)
        end.
  Proof.
    intro H. destruct (exec_read_at cur rest ty H) as [cur' [H' E]]. exists cur'.
    split; [exact H'|]. cbn [run_ops]. rewrite E.
    destruct (next_read ty rest); try reflexivity. now destruct (run_ops d cur' code).
  Qed.

  Lemma read_strs_then ty pre : forall cur rest,
    at_pos d cur (pre ++ rest) ->
    run_ops d cur (map DRead (repeat 5 (length pre) ++ [ty]))
    = match next_read ty rest with
      | RVal c => (map str_cell pre ++ [c], EDone)
      | r => (map str_cell pre, ETrap r)
      end.
  Proof.
    induction pre as [|x pre IH]; intros cur rest H; cbn [length repeat app map].
    - destruct (run_ops_read cur rest ty [] H) as [cur' [_ ->]]. now destruct (next_read ty rest).
    - destruct (run_ops_read cur _ 5 (map DRead (repeat 5 (length pre) ++ [ty])) H)
        as [cur' [H' ->]].
      cbn [app tl next_read] in *. rewrite convert_str, (IH cur' rest H').
      now destruct (next_read ty rest).
  Qed.
End Device.

Lemma reads_from_start d ty pre rest :
  parts_nonempty d = true -> concat d = pre ++ rest ->
  run_ops d cur_init (map DRead (repeat 5 (length pre) ++ [ty]))
  = match next_read ty rest with
    | RVal c => (map str_cell pre ++ [c], EDone)
    | r => (map str_cell pre, ETrap r)
    end.
Proof. intros Hne E. apply (read_strs_then d Hne). rewrite <- E. now apply at_start. Qed.

Lemma key_eqb_eq a b : key_eqb a b = true <-> a = b.
Proof.
  destruct a as [x|], b as [y|]; simpl; try rewrite str_eqb_eq; split; congruence.
Qed.

Lemma key_eqb_refl a : key_eqb a a = true.
Proof. now apply key_eqb_eq. Qed.

Lemma key_eqb_neq a b : a <> b -> key_eqb a b = false.
Proof. intro H. destruct (key_eqb a b) eqn:E; [|reflexivity]. now apply key_eqb_eq in E. Qed.

Lemma mem_label_In l ls : mem_label l ls = true <-> In l ls.
Proof.
  unfold mem_label. rewrite existsb_exists. split.
  - intros [x [H1 H2]]. apply str_eqb_eq in H2. now subst.
  - intro H. exists l. split; [exact H | apply str_eqb_refl].
Qed.

Lemma has_dup_NoDup ls : has_dup ls = false -> NoDup ls.
Proof.
  induction ls as [|l ls IH]; simpl; intro H; [constructor|].
  apply orb_false_iff in H as [H1 H2]. constructor; [|now apply IH].
  intro Hin. apply mem_label_In in Hin. congruence.
Qed.

Definition ev_labels (e : ev) : list label :=
  match e with ELabel l | ESubLabel l => [l] | EData _ => [] end.

Definition ev_items (e : ev) : list ditem :=
  match e with EData its => its | _ => [] end.

Lemma labels_of_cons e evs : labels_of (e :: evs) = ev_labels e ++ labels_of evs.
Proof. destruct e; reflexivity. Qed.

Lemma labels_of_app a b : labels_of (a ++ b) = labels_of a ++ labels_of b.
Proof. apply flat_map_app. Qed.

Lemma all_items_cons e evs : all_items (e :: evs) = ev_items e ++ all_items evs.
Proof. destruct e; reflexivity. Qed.

Lemma all_items_app a b : all_items (a ++ b) = all_items a ++ all_items b.
Proof. unfold all_items. apply flat_map_app. Qed.

Definition gacc : Type := list (key * list ditem).
Definition gkeys (acc : gacc) : list key := map fst acc.
Definition gitems (acc : gacc) : list ditem := concat (map snd acc).

Lemma gkeys_app a b : gkeys (a ++ b) = gkeys a ++ gkeys b.
Proof. apply map_app. Qed.

Lemma gitems_app a b : gitems (a ++ b) = gitems a ++ gitems b.
Proof. unfold gitems. now rewrite map_app, concat_app. Qed.

Lemma dict_extend_skip acc0 acc1 k its :
  ~ In k (gkeys acc0) -> dict_extend (acc0 ++ acc1) k its = acc0 ++ dict_extend acc1 k its.
Proof.
  induction acc0 as [|[k' v] acc0 IH]; intro H; [reflexivity|].
  simpl in *. rewrite key_eqb_neq by tauto. f_equal. apply IH. tauto.
Qed.

Lemma dict_extend_new acc k its :
  ~ In k (gkeys acc) -> dict_extend acc k its = acc ++ [(k, its)].
Proof.
  intro H. pose proof (dict_extend_skip acc [] k its H) as E. now rewrite app_nil_r in E.
Qed.

Lemma dict_extend_head k v r k2 its :
  exists v' r', dict_extend ((k, v) :: r) k2 its = (k, v') :: r'.
Proof. simpl. destruct (key_eqb k k2); eexists; eexists; reflexivity. Qed.

(* Pass1 with the labels still to come.  None of them is the last label or a key, and the
   entry of the last label, if there is one, is the final one: DATA extends the dictionary
   at its end only. *)
Definition ginv (st : key * list (key * list ditem)) (ls : list label) : Prop :=
  NoDup ls /\
  (forall l, In l ls -> ~ In (Some l) (fst st :: gkeys (snd st))) /\
  exists closed cur, snd st = closed ++ cur /\ ~ In (fst st) (gkeys closed) /\
                     (cur = [] \/ exists v, cur = [(fst st, v)]).

Lemma ginv_label last acc l ls : ginv (last, acc) (l :: ls) -> ginv (Some l, acc) ls.
Proof.
  unfold ginv. cbn [fst snd]. intros [Hnd [Hfresh _]].
  apply NoDup_cons_iff in Hnd as [Hl Hnd]. split; [exact Hnd|]. split.
  - intros l' Hl' [E|Hin]; [congruence|]. apply (Hfresh l'); [now right | now right].
  - exists acc, []. rewrite app_nil_r. split; [reflexivity|]. split; [|now left].
    intro Hin. apply (Hfresh l); [now left | now right].
Qed.

Lemma ginv_data last acc its ls :
  ginv (last, acc) ls ->
  ginv (last, dict_extend acc last its) ls /\
  gitems (dict_extend acc last its) = gitems acc ++ its.
Proof.
  unfold ginv. cbn [fst snd]. intros [Hnd [Hfresh [closed [cur [-> [Hcl Hcur]]]]]].
  rewrite (dict_extend_skip _ _ _ _ Hcl).
  assert (Hext : exists w, dict_extend cur last its = [(last, w)] /\
                           gitems [(last, w)] = gitems cur ++ its).
  { destruct Hcur as [->|[v ->]]; cbn [dict_extend].
    - exists its. split; [reflexivity|]. unfold gitems. simpl. apply app_nil_r.
    - rewrite key_eqb_refl. exists (v ++ its). split; [reflexivity|]. unfold gitems. simpl.
      now rewrite !app_nil_r. }
  destruct Hext as [w [-> Hw]]. split; [|now rewrite !gitems_app, Hw, app_assoc].
  split; [exact Hnd|]. split.
  - intros l Hl [E|Hin]; [apply (Hfresh l Hl); now left|].
    rewrite gkeys_app in Hin. apply in_app_or in Hin as [Hin|[E|[]]].
    + apply (Hfresh l Hl). right. rewrite gkeys_app. apply in_or_app. now left.
    + apply (Hfresh l Hl). now left.
  - exists closed, [(last, w)]. split; [reflexivity|]. split; [exact Hcl | right; now exists w].
Qed.

Lemma ginv_step st e evs :
  ginv st (labels_of (e :: evs)) ->
  ginv (gstep st e) (labels_of evs) /\
  gitems (snd (gstep st e)) = gitems (snd st) ++ ev_items e.
Proof.
  destruct st as [last acc]. intro H.
  destruct e as [l|its|l]; cbn [gstep fst snd ev_items]; [|now apply ginv_data|];
    (rewrite app_nil_r; split; [now apply (ginv_label last acc l) in H | reflexivity]).
Qed.

Lemma ginv_run a : forall st b,
  ginv st (labels_of (a ++ b)) ->
  ginv (fold_left gstep a st) (labels_of b) /\
  gitems (snd (fold_left gstep a st)) = gitems (snd st) ++ all_items a.
Proof.
  induction a as [|e a IH]; intros st b H.
  - simpl. split; [exact H | now rewrite app_nil_r].
  - destruct (ginv_step st e (a ++ b) H) as [H1 H2].
    destruct (IH (gstep st e) b H1) as [H3 H4]. split; [exact H3|].
    cbn [fold_left]. now rewrite H4, H2, all_items_cons, app_assoc.
Qed.

Lemma ginv_init ls : NoDup ls -> ginv (None, []) ls.
Proof.
  intro H. split; [exact H|]. split.
  - intros l _ [E|[]]. discriminate.
  - exists [], []. split; [reflexivity|]. split; [intros [] | now left].
Qed.

Theorem parts_are_source_order evs :
  has_dup (labels_of evs) = false -> concat (parts_of (group evs)) = all_items evs.
Proof.
  intro H. apply has_dup_NoDup, ginv_init in H. rewrite <- (app_nil_r evs) in H.
  apply ginv_run in H as [_ H]. exact H.
Qed.

Lemma grun_stable evs : forall last closed k v mid,
  ~ In last (gkeys closed) ->
  (forall l, In l (labels_of evs) -> ~ In (Some l) (gkeys closed)) ->
  exists v' r',
    snd (fold_left gstep evs (last, closed ++ (k, v) :: mid)) = closed ++ (k, v') :: r'.
Proof.
  induction evs as [|e evs IH]; intros last closed k v mid Hl Hf; [now exists v, mid|].
  rewrite labels_of_cons in Hf.
  assert (Hf' : forall l, In l (labels_of evs) -> ~ In (Some l) (gkeys closed)).
  { intros l Hin. apply Hf, in_or_app. now right. }
  destruct e as [l|its|l]; cbn [fold_left gstep].
  - apply IH; [apply Hf; now left | exact Hf'].
  - rewrite dict_extend_skip by exact Hl.
    destruct (dict_extend_head k v mid last its) as [v' [r' ->]]. now apply IH.
  - apply IH; [apply Hf; now left | exact Hf'].
Qed.

Lemma key_index_app a b k i :
  ~ In k (gkeys a) -> key_index (a ++ b) k i = key_index b k (i + Z.of_nat (length a)).
Proof.
  revert i; induction a as [|[k' v] a IH]; intros i H.
  - simpl. now rewrite Z.add_0_r.
  - simpl in H. cbn [app key_index]. rewrite key_eqb_neq, IH by tauto.
    f_equal. simpl length. lia.
Qed.

Lemma label_pos_app pre l r : forall n,
  ~ In l (labels_of pre) ->
  label_pos l (pre ++ ELabel l :: r) n = Some (n + length (all_items pre))%nat.
Proof.
  induction pre as [|e pre IH]; intros n H.
  - simpl. rewrite str_eqb_refl. f_equal. lia.
  - rewrite labels_of_cons in H. rewrite all_items_cons.
    assert (Hp : ~ In l (labels_of pre)) by (intro Hin; apply H; apply in_or_app; now right).
    destruct e as [l'|its|l']; cbn [app label_pos ev_items].
    + destruct (str_eqb l l') eqn:E; [|now apply IH].
      apply str_eqb_eq in E. subst. exfalso. apply H. now left.
    + rewrite IH by exact Hp. f_equal. rewrite app_length. lia.
    + now apply IH.
Qed.

Lemma label_has_data_split l evs :
  label_has_data l evs = true -> exists pre its post, evs = pre ++ ELabel l :: EData its :: post.
Proof.
  induction evs as [|e evs IH]; [discriminate|]. intro H.
  assert (Hr : label_has_data l evs = true ->
               exists pre its post, e :: evs = pre ++ ELabel l :: EData its :: post).
  { intro Hr. destruct (IH Hr) as [pre [its [post ->]]]. now exists (e :: pre), its, post. }
  destruct e as [l'|its|l']; cbn [label_has_data] in H; try (now apply Hr).
  apply orb_true_iff in H as [H|H]; [|now apply Hr].
  apply andb_true_iff in H as [H1 H2]. apply str_eqb_eq in H1. subst l'.
  destruct evs as [|[|its|] post]; try discriminate. now exists [], its, post.
Qed.

(* RESTORE label: the part index exists and its first item is the first item at or after the label *)
Theorem restore_label evs l :
  has_dup (labels_of evs) = false -> label_has_data l evs = true ->
  exists k n,
    key_index (group evs) (Some l) 0 = Some (Z.of_nat k) /\
    (k < length (parts_of (group evs)))%nat /\
    label_pos l evs 0 = Some n /\
    skipn n (all_items evs) = concat (skipn k (parts_of (group evs))).
Proof.
  intros Hd Hl. pose proof (parts_are_source_order evs Hd) as Hso. apply has_dup_NoDup in Hd.
  destruct (label_has_data_split l evs Hl) as [pre [its [post ->]]].
  (* Pass1 over [pre] leaves entries that the rest of the program cannot touch; the DATA
     after the label opens a new entry, which stays where it is *)
  destruct (ginv_run pre _ _ (ginv_init _ Hd)) as [[_ [Hfresh _]] Hitems].
  destruct (fold_left gstep pre (None, [])) as [last1 acc1] eqn:E1. cbn [fst snd] in *.
  assert (Hl1 : ~ In (Some l) (gkeys acc1)) by (intro Hin; apply (Hfresh l); [now left | now right]).
  destruct (grun_stable post (Some l) acc1 (Some l) its []) as [v' [r' Eh]]; [exact Hl1 | |].
  { intros l' Hl' Hin. apply (Hfresh l'); [now right | now right]. }
  assert (Hg : group (pre ++ ELabel l :: EData its :: post) = acc1 ++ (Some l, v') :: r').
  { unfold group. rewrite fold_left_app, E1. cbn [fold_left gstep].
    now rewrite (dict_extend_new _ _ _ Hl1). }
  exists (length acc1), (length (all_items pre)). rewrite Hg in *. unfold parts_of in *.
  rewrite map_app in *. split; [|split; [|split]].
  - rewrite key_index_app by exact Hl1. cbn [key_index]. now rewrite key_eqb_refl.
  - rewrite app_length, map_length. simpl. lia.
  - apply label_pos_app. rewrite labels_of_app in Hd. apply NoDup_remove_2 in Hd.
    intro Hin. apply Hd, in_or_app. now left.
  - rewrite <- Hso, concat_app. fold (gitems acc1). rewrite Hitems.
    rewrite skipn_app, skipn_all, Nat.sub_diag. rewrite <- (map_length snd acc1).
    rewrite skipn_app, skipn_all, Nat.sub_diag. reflexivity.
Qed.

Lemma dict_extend_nonempty acc k its :
  its <> [] -> parts_nonempty (map snd acc) = true ->
  parts_nonempty (map snd (dict_extend acc k its)) = true.
Proof.
  intro Hi. induction acc as [|[k' v] acc IH]; simpl; intro H.
  - destruct its; [contradiction | reflexivity].
  - apply andb_true_iff in H as [H1 H2]. destruct (key_eqb k' k); simpl.
    + rewrite H2. destruct v; [discriminate | reflexivity].
    + rewrite H1. now apply IH.
Qed.

Lemma grun_nonempty evs : forall st,
  data_nonempty evs = true -> parts_nonempty (map snd (snd st)) = true ->
  parts_nonempty (map snd (snd (fold_left gstep evs st))) = true.
Proof.
  induction evs as [|e evs IH]; intros [last acc] Hd Hp; [exact Hp|].
  simpl in Hd. apply andb_true_iff in Hd as [He Hd].
  destruct e as [l|its|l]; cbn [fold_left gstep]; apply IH; try assumption.
  apply dict_extend_nonempty; [|exact Hp]. intros ->. discriminate He.
Qed.

Lemma group_nonempty evs :
  data_nonempty evs = true -> parts_nonempty (parts_of (group evs)) = true.
Proof. intro H. now apply grun_nonempty. Qed.

(* code generation with the index pushed for a bare RESTORE as a parameter:
   -1 = the unchanged code, 0 = after fixes/C15-D11.diff (which /repo has applied) *)
Fixpoint gen_ops_b (b : Z) (g : gacc) (ops : list op) : option (list dop) :=
  match ops with
  | [] => Some []
  | ORead ty :: r => option_map (cons (DRead ty)) (gen_ops_b b g r)
  | ORestore None :: r => option_map (cons (DRestore b)) (gen_ops_b b g r)
  | ORestore (Some l) :: r =>
    match key_index g (Some l) 0 with
    | Some i => option_map (cons (DRestore i)) (gen_ops_b b g r)
    | None => None
    end
  end.

(* the model's two code generators are the instances -1 and 0 *)
Lemma gen_ops_is g ops : gen_ops g ops = gen_ops_b (-1) g ops.
Proof.
  induction ops as [|[ty|[l|]] r IH]; simpl; try reflexivity; now rewrite IH.
Qed.

Lemma gen_ops_fixed_is g ops : gen_ops_fixed g ops = gen_ops_b 0 g ops.
Proof.
  induction ops as [|[ty|[l|]] r IH]; simpl; try reflexivity; now rewrite IH.
Qed.

Definition agrees (run : list cell * ending) (spec : list cell * sending) : Prop :=
  exists e', abstract_ending (snd run) = Some e' /\ spec = (fst run, e').

(* what the code generator must achieve for RESTORE l: a part index at which the data
   section continues with the items from label_pos l on *)
Definition restore_ok (evs : list ev) (d : dparts) (g : gacc) (l : label) : Prop :=
  exists k n,
    key_index g (Some l) 0 = Some (Z.of_nat k) /\ (k < length d)%nat /\
    label_pos l evs 0 = Some n /\ skipn n (all_items evs) = concat (skipn k d).

Section Sim.
  Variables (evs : list ev) (d : dparts) (g : gacc).
  Hypothesis Hne : parts_nonempty d = true.
  Hypothesis Hsrc : concat d = all_items evs.

  Lemma sim b ops :
    ops_typed ops = true -> Forall (restore_ok evs d g) (targets_of ops) ->
    (b = 0 \/ no_bare_restore ops = true) ->
    exists code, gen_ops_b b g ops = Some code /\
      forall cur pos, at_pos d cur (skipn pos (all_items evs)) ->
        agrees (run_ops d cur code) (spec_run evs pos ops).
  Proof.
    induction ops as [|o ops IH]; intros Hty Htg Hb.
    - exists []. split; [reflexivity|]. intros cur pos _. exists SDone. split; reflexivity.
    - assert (Hb' : b = 0 \/ no_bare_restore ops = true).
      { destruct Hb as [Hb|Hb]; [now left | right]. now destruct o as [|[|]]. }
      cbn [ops_typed forallb] in Hty. apply andb_true_iff in Hty as [Hty1 Hty].
      cbn [targets_of flat_map] in Htg. apply Forall_app in Htg as [Ho Htg].
      destruct (IH Hty Htg Hb') as [code [Hc Hrun]]. destruct o as [ty|[l|]].
      + exists (DRead ty :: code). split; [cbn [gen_ops_b]; now rewrite Hc|].
        intros cur pos Hat. cbn [spec_run].
        destruct (run_ops_read d Hne cur _ ty code Hat) as [cur' [Hat' ->]].
        rewrite skipn_nth_error in Hat' |- *.
        destruct (nth_error (all_items evs) pos) as [it|]; [|exists SRuntimeError; split; reflexivity].
        cbn [tl next_read] in *. specialize (Hrun cur' (S pos) Hat').
        pose proof (convert_typed ty it Hty1) as Htr.
        destruct (convert ty it) as [c|k| |];
          [|exists SRuntimeError; split; reflexivity..|contradiction].
        destruct Hrun as [e' [Ha ->]]. exists e'. split; [exact Ha | reflexivity].
      + apply Forall_inv in Ho. destruct Ho as [k [n [Hki [Hk [Hlp Hsk]]]]].
        exists (DRestore (Z.of_nat k) :: code). split; [cbn [gen_ops_b]; now rewrite Hki, Hc|].
        intros cur pos _. cbn [run_ops spec_run]. rewrite Hlp. apply Hrun.
        rewrite Hsk. apply at_part_start; [exact Hne | now apply Nat.lt_le_incl].
      + destruct Hb as [->|Hb]; [|discriminate].
        exists (DRestore 0 :: code). split; [cbn [gen_ops_b]; now rewrite Hc|].
        intros cur pos _. cbn [run_ops spec_run]. apply Hrun.
        rewrite <- Hsrc. now apply at_start.
  Qed.
End Sim.

Definition run_prog_b (b : Z) (evs : list ev) (ops : list op) : pres :=
  if has_dup (labels_of evs) then PCompile CDuplicateLabel
  else if negb (forallb (fun l => mem_label l (main_labels_of evs)) (targets_of ops))
  then PCompile CLabelNotDefined
  else match gen_ops_b b (group evs) ops with
       | Some code => let '(vs, e) := run_ops (parts_of (group evs)) cur_init code in PRun vs e
       | None => PCompile CValueError
       end.

(* ... and so are its two ways to run a program *)
Lemma run_prog_is evs ops : run_prog evs ops = run_prog_b (-1) evs ops.
Proof.
  unfold run_prog, compile, run_prog_b. rewrite gen_ops_is.
  destruct (has_dup _); [reflexivity|]. destruct (negb _); [reflexivity|].
  now destruct (gen_ops_b _ _ _).
Qed.

Lemma run_prog_fixed_is evs ops : run_prog_fixed evs ops = run_prog_b 0 evs ops.
Proof. unfold run_prog_fixed, run_prog_b. now rewrite gen_ops_fixed_is. Qed.

(* a legal program whose RESTORE targets own a DATA statement meets the specification if a
   bare RESTORE pushes 0 (fixes/C15-D11.diff), or if there is none *)
Theorem program_b b evs ops :
  prog_valid evs ops = true -> data_nonempty evs = true -> ops_typed ops = true ->
  targets_own_data evs ops = true -> (b = 0 \/ no_bare_restore ops = true) ->
  abstract_pres (run_prog_b b evs ops) = Some (spec_prog evs ops).
Proof.
  intros Hv Hne Hty Htg Hb. unfold spec_prog, run_prog_b. rewrite Hv.
  apply andb_true_iff in Hv as [Hd Ht]. apply negb_true_iff in Hd. rewrite Hd, Ht. cbn [negb].
  pose proof (group_nonempty evs Hne) as Hpn. pose proof (parts_are_source_order evs Hd) as Hsrc.
  destruct (sim evs _ (group evs) Hpn Hsrc b ops Hty) as [code [-> Hrun]]; [|exact Hb|].
  - apply Forall_forall. intros l Hl. apply restore_label; [exact Hd|].
    apply (proj1 (forallb_forall _ _) Htg l Hl).
  - destruct (Hrun cur_init 0%nat) as [e' [Ha ->]]; [rewrite <- Hsrc; now apply at_start|].
    destruct (run_ops _ cur_init code) as [vs e]. simpl in *. now rewrite Ha.
Qed.

(* READ only, on any data section with non-empty parts: the values of the flat item list *)
Theorem read_in_source_order d tys :
  parts_nonempty d = true ->
  ops_typed (map ORead tys) = true ->
  exists e', abstract_ending (snd (run_ops d cur_init (map DRead tys))) = Some e' /\
    spec_run (map EData d) 0 (map ORead tys) = (fst (run_ops d cur_init (map DRead tys)), e').
Proof.
  intros Hne Hty.
  assert (Hsrc : concat d = all_items (map EData d)).
  { clear. induction d as [|a d IH]; [reflexivity|]. simpl. now rewrite IH. }
  assert (Hro : targets_of (map ORead tys) = [] /\
                gen_ops_b 0 [] (map ORead tys) = Some (map DRead tys)).
  { clear. induction tys as [|ty tys [IH1 IH2]]; [now split|]. simpl. now rewrite IH1, IH2. }
  destruct Hro as [Htg Hgen].
  destruct (sim _ d [] Hne Hsrc 0 (map ORead tys) Hty) as [code [Hc Hrun]];
    [rewrite Htg; constructor | now left |].
  rewrite Hgen in Hc. injection Hc as <-. apply Hrun.
  rewrite <- Hsrc. now apply at_start.
Qed.
