(* C19 - PRINT USING: lemmas relating the model of the code (Models/Using.v,
   the USING branch of Models/Print.v) to the specification
   (Models/UsingSpec.v). *)
From Coq Require Import ZArith List Bool Lia ZifyBool.
From QV Require Import Sx Strs Fl Dec Cell Using UsingSpec Print UsingDigits PrintProofs.
Import ListNotations.
Open Scope Z_scope.

(* format_number behind the call of format(): sign, padding, trimming, '%' *)

Definition sign_char (sign_type : Z) (neg : bool) : Z :=
  if sign_type =? ch_minus then (if neg then ch_minus else ch_space)
  else (if neg then ch_minus else ch_plus).

(* behind the digits, a sign other than "-" comes with a blank in front of them *)
Definition signed (at_end : bool) (sign : Z) (body : str) : str :=
  if at_end then (if sign =? ch_minus then body ++ [sign] else ch_space :: body ++ [sign])
  else sign :: body.

Definition pad (w : Z) (r : str) : str :=
  if zlen r <? w then spaces (Z.to_nat (w - zlen r)) ++ r else r.

(* a blank sign gives way when the text is too long *)
Definition trim (blank at_end : bool) (w : Z) (r : str) : str :=
  if blank && (zlen r >? w) then (if at_end then removelast r else tl r) else r.

Definition mark (w : Z) (r : str) : str := if zlen r >? w then ch_pct :: r else r.

Definition finish (w : Z) (at_end : bool) (sign_type : Z) (neg : bool) (body : str) : str :=
  mark w (trim (sign_char sign_type neg =? ch_space) at_end w
               (pad w (signed at_end (sign_char sign_type neg) body))).

Definition code_prec (w : Z) (o : numopts) : option Z :=
  match o_decpt o with Some d => Some (w - d) | None => None end.

(* [finish] is the text of render_num behind the call of format(), up to
   unfolding; compared first with the sign request as the code takes it
   apart, so that this is seen without reducing anything *)
Lemma render_num_finish w o v :
  render_num w o v =
  match py_format_num v (o_comma o) (code_prec w o) with
  | UOk body => UOk (finish w (fst (sign_req o)) (snd (sign_req o)) (uval_neg v) body)
  | UCrash k => UCrash k
  end.
Proof.
  transitivity (match py_format_num v (o_comma o) (code_prec w o) with
                | UOk b => let '(at_end, st) := sign_req o in UOk (finish w at_end st (uval_neg v) b)
                | UCrash k => UCrash k
                end).
  - destruct v; reflexivity.
  - destruct (sign_req o); reflexivity.
Qed.

Lemma zlen_app a b : zlen (a ++ b) = zlen a + zlen b.
Proof. unfold zlen. rewrite app_length. lia. Qed.

Lemma zlen_cons (x : Z) l : zlen (x :: l) = 1 + zlen l.
Proof. unfold zlen. cbn [length]. lia. Qed.

Lemma zlen_nonneg s : 0 <= zlen s.
Proof. unfold zlen. lia. Qed.

Lemma spaces_shift n l : spaces n ++ ch_space :: l = spaces (S n) ++ l.
Proof.
  unfold spaces. change (ch_space :: l) with ([ch_space] ++ l).
  now rewrite app_assoc, repeat_snoc.
Qed.

Lemma pad_spaces w r : pad w r = spaces (Z.to_nat (w - zlen r)) ++ r.
Proof.
  unfold pad. destruct (Z.ltb_spec (zlen r) w); [reflexivity|].
  now replace (Z.to_nat (w - zlen r)) with 0%nat by lia.
Qed.

Lemma pad_id w r : w <= zlen r -> pad w r = r.
Proof. intro H. unfold pad. destruct (Z.ltb_spec (zlen r) w); [lia | reflexivity]. Qed.

Lemma zlen_pad w r : zlen (pad w r) = Z.max w (zlen r).
Proof. rewrite pad_spaces. unfold zlen. rewrite app_length, spaces_length. lia. Qed.

Lemma pad_blank w t : zlen t < w -> pad w (ch_space :: t) = pad w t.
Proof.
  intro H. rewrite !pad_spaces, zlen_cons, spaces_shift. do 2 f_equal. lia.
Qed.

Lemma trim_fits b e w t : zlen t <= w -> trim b e w (pad w t) = pad w t.
Proof.
  intro H. unfold trim. replace (zlen (pad w t) >? w) with false by (rewrite zlen_pad; lia).
  now rewrite andb_false_r.
Qed.

(* padding and marking, as the specification words it *)
Lemma pad_mark w t :
  mark w (pad w t) = if zlen t <=? w then spaces (Z.to_nat (w - zlen t)) ++ t else ch_pct :: t.
Proof.
  destruct (Z.leb_spec (zlen t) w).
  - unfold mark. rewrite zlen_pad, pad_spaces.
    destruct (Z.gtb_spec (Z.max w (zlen t)) w); [lia | reflexivity].
  - rewrite pad_id by lia. unfold mark. destruct (Z.gtb_spec (zlen t) w); [reflexivity | lia].
Qed.

Lemma is_negative_uval_neg v : is_negative v = uval_neg v.
Proof.
  destruct v as [z|[|n|[] m e]|s]; try reflexivity. cbn [is_negative uval_neg andb]. lia.
Qed.

Record guard_facts (w : Z) (o : numopts) (v : uval) : Prop := {
  gf_wf : opts_wf o = true;
  gf_point : has_point o = true -> code_decimals w o = o_frac o /\ 1 <= o_frac o;
  gf_val : match v with
           | UInt z => Z.abs z < 2 ^ 53
           | UFlt (FFin _ _ _) => has_point o = true
           | _ => False
           end;
  gf_tight : fst (sign_req o) = true -> is_negative v = false ->
             forall n, scaled_round v (o_frac o) = Some n ->
             zlen (spec_digits (o_comma o) (has_point o) (o_frac o) n) + 2 <= w;
}.

Lemma opts_wf_frac o : opts_wf o = true -> has_point o = false -> o_frac o = 0.
Proof. unfold opts_wf. lia. Qed.

Lemma opts_wf_sign o : opts_wf o = true ->
  snd (sign_req o) = ch_plus \/ snd (sign_req o) = ch_minus.
Proof. unfold opts_wf. lia. Qed.

(* the reasons of an INTEGER/LONG and of a finite SINGLE/DOUBLE differ in the
   second summand only, which [gf_val] reads *)
Lemma field_guard_facts w o v : field_reasons w o v = [] -> guard_facts w o v.
Proof.
  intro H. destruct v as [z|[|n|n m e]|s]; try discriminate H; cbn [field_reasons] in H.
  (* no reason: each of the five summands is empty *)
  all: apply app_eq_nil in H as (H1 & (H2 & (H3 & (H4 & H5)%app_eq_nil)%app_eq_nil)%app_eq_nil).
  all: destruct (opts_wf o) eqn:Hwf; [|discriminate H1].
  all: destruct (has_point o && negb _) eqn:E3 in H3; [destruct (fst (sign_req o)); discriminate H3|].
  all: destruct (has_point o && _ && _) eqn:E4 in H4; [discriminate H4|].
  all: split; [exact Hwf | | |].
  (* gf_point: the third and the fourth summand *)
  1, 4: intro Hp; rewrite Hp in E3, E4; unfold opts_wf in Hwf; lia.
  (* gf_tight: the fifth *)
  2, 4: intros Hend Hneg k Hk; rewrite Hend, Hneg, Hk in H5;
        destruct (_ <=? w) eqn:E5 in H5; [apply Z.leb_le, E5 | discriminate H5].
  (* gf_val: the second *)
  - destruct (_ <? _) eqn:E2 in H2; [apply Z.ltb_lt, E2 | discriminate H2].
  - now destruct (has_point o).
Qed.

Lemma code_prec_point w o :
  code_prec w o = if has_point o then Some (code_decimals w o) else None.
Proof. unfold has_point, code_prec, code_decimals. now destruct (o_decpt o). Qed.

(* '{:[,].kf}': the digits Python prints for a float are those of the
   specification for the scaled and rounded integer *)
Lemma fixed_spec_digits (comma : bool) n m e k : 1 <= k ->
  (if comma then group_int_part (py_fixed (FFin n m e) k) else py_fixed (FFin n m e) k)
  = spec_digits comma true k (fixed_scaled m e k).
Proof.
  intro Hk. rewrite py_fixed_digits by exact Hk. unfold spec_digits.
  destruct comma; [|reflexivity].
  assert (Hip : 0 <= fixed_scaled m e k / 10 ^ k).
  { apply Z.div_pos; [apply fixed_scaled_nonneg | apply Z.pow_pos_nonneg; lia]. }
  now rewrite group_int_part_point, group3_spec by (exact Hip || now apply nat_digits_all_digits).
Qed.

Lemma body_spec_digits w o v :
  guard_facts w o v ->
  exists n, scaled_round v (o_frac o) = Some n /\
            py_format_num v (o_comma o) (code_prec w o)
            = UOk (spec_digits (o_comma o) (has_point o) (o_frac o) n).
Proof.
  intros [Hwf Hpt Hval _]. rewrite code_prec_point.
  destruct v as [z|[|n|n m e]|s]; try contradiction.
  - exists (Z.abs z * 10 ^ o_frac o). split; [reflexivity|].
    cbn [py_format_num]. destruct (has_point o) eqn:Hp; f_equal.
    + (* format() converts the integer to float first, exactly *)
      destruct (Hpt eq_refl) as [-> Hk].
      destruct (of_Z_scaled (Z.abs z) (o_frac o) (conj (Z.abs_nonneg z) Hval)) as (m & e & -> & <-);
        [clear - Hk; lia|].
      apply fixed_spec_digits, Hk.
    + rewrite (opts_wf_frac o Hwf Hp). unfold spec_digits.
      change (10 ^ 0) with 1. rewrite Z.mul_1_r, Z.div_1_r.
      destruct (o_comma o); [|reflexivity]. apply group3_spec, Z.abs_nonneg.
  - (* a float is inside the guard only with a decimal point *)
    rewrite Hval. destruct (Hpt Hval) as [-> Hk].
    exists (fixed_scaled m e (o_frac o)). split; [apply fixed_scaled_spec|].
    cbn [py_format_num fabs]. f_equal. apply fixed_spec_digits, Hk.
Qed.

(* Where the sign is no blank and stands alone, the code pads and marks the
   specification's text.  A blank sign in front is padding: absorbed while
   there is room, dropped when there is none.  Behind the digits the code
   puts one more blank in front; inside the guard there is room for it. *)
Lemma finish_spec w o v ds :
  opts_wf o = true ->
  (fst (sign_req o) = true -> is_negative v = false -> zlen ds + 2 <= w) ->
  finish w (fst (sign_req o)) (snd (sign_req o)) (is_negative v) ds
  = mark w (pad w (if fst (sign_req o) then ds ++ spec_sign o v else spec_sign o v ++ ds)).
Proof.
  intros Hwf Htight. pose proof (opts_wf_sign o Hwf) as Hs.
  unfold finish, spec_sign. destruct (sign_req o) as [at_end st]. cbn [fst snd] in *.
  destruct (is_negative v).
  - (* "-" *)
    replace (sign_char st true) with ch_minus by (unfold sign_char; now destruct (_ =? _)).
    destruct at_end; reflexivity.
  - destruct Hs as [-> | ->], at_end; cbn -[pad mark zlen].
    + (* digits "+" *) now rewrite pad_blank by (rewrite zlen_app; cbn; lia).
    + (* "+" digits *) reflexivity.
    + (* digits " " *) now rewrite pad_blank, trim_fits by (rewrite zlen_app; cbn; lia).
    + (* " " digits *)
      destruct (Z.ltb_spec (zlen ds) w); [now rewrite pad_blank, trim_fits by lia|].
      rewrite !pad_id by (rewrite ?zlen_cons; lia). unfold trim. rewrite zlen_cons.
      destruct (Z.gtb_spec (1 + zlen ds) w); [reflexivity | lia].
Qed.

(* C19 num_field, guarded: inside the guard the code prints exactly the text
   the specification demands *)
Lemma num_field_partial w o v :
  field_guard w o v = true ->
  exists t, render_num w o v = UOk t /\ spec_field w o v = Some t.
Proof.
  intro Hg. unfold field_guard in Hg.
  destruct (field_reasons w o v) eqn:Hr; [|discriminate].
  pose proof (field_guard_facts w o v Hr) as G.
  destruct (body_spec_digits w o v G) as (n & Hn & Hbody).
  rewrite render_num_finish, Hbody, <- is_negative_uval_neg.
  unfold spec_field, spec_core. rewrite Hn, <- pad_mark.
  eexists; split; [reflexivity|]. f_equal. symmetry. apply finish_spec; [apply G|].
  intros He Hneg. exact (gf_tight _ _ _ G He Hneg n Hn).
Qed.

Lemma scan_escape f d r nf acc :
  scan (S f) (ch_us :: d :: r) nf acc false = scan f r (d :: nf) acc false.
Proof. reflexivity. Qed.

Lemma scan_plain f c r nf acc : is_special c = false ->
  scan (S f) (c :: r) nf acc false = scan f r (c :: nf) acc false.
Proof.
  unfold is_special. intro Es. cbn [scan].
  replace ((c =? ch_hash) || is_pm c) with false by (unfold is_pm; lia).
  replace ((c =? ch_amp) || (c =? ch_bang)) with false by lia.
  now replace (c =? ch_us) with false by lia.
Qed.

Lemma scan_literal : forall fuel s nf t,
  (2 * length s < fuel)%nat -> literal_text s = Some t ->
  scan fuel s nf [] false = Some (rev (flush (rev t ++ nf) [])).
Proof.
  induction fuel as [|f IH]; intros s nf t Hf Ht; [lia|].
  destruct s as [|c r]; cbn [literal_text length] in Hf, Ht; [injection Ht as <-; reflexivity|].
  destruct (Z.eqb_spec c ch_us) as [->|_].
  - (* "_d": d is copied *)
    destruct r as [|d r']; [discriminate|].
    destruct (literal_text r') as [t'|] eqn:Et; [|discriminate]. injection Ht as <-.
    rewrite scan_escape, (IH r' (d :: nf) t') by (cbn [length] in Hf; lia || exact Et).
    cbn [rev]. now rewrite <- app_assoc.
  - destruct (is_special c) eqn:Es; [discriminate|].
    destruct (literal_text r) as [t'|] eqn:Et; [|discriminate]. injection Ht as <-.
    rewrite (scan_plain f c), (IH r (c :: nf) t') by (assumption || lia).
    cbn [rev]. now rewrite <- app_assoc.
Qed.

Lemma flush_rev t : rev (flush (rev t) []) = match t with [] => [] | _ => [PNon t] end.
Proof.
  destruct t as [|x t']; [reflexivity|]. unfold flush. destruct (rev (x :: t')) eqn:E.
  - discriminate (rev_eq_app _ [] [] E).
  - now rewrite <- E, rev_involutive.
Qed.

Lemma literal_text_plain s :
  forallb (fun c => negb (is_special c)) s = true -> literal_text s = Some s.
Proof.
  induction s as [|c r IH]; intro H; [reflexivity|].
  cbn [forallb] in H. apply andb_true_iff in H as [Hc Hr].
  cbn [literal_text]. apply negb_true_iff in Hc.
  destruct (Z.eqb_spec c ch_us) as [->|_]; [discriminate|].
  now rewrite Hc, (IH Hr).
Qed.

Fixpoint nfields (parts : list upart) : Z :=
  match parts with
  | [] => 0
  | PNon _ :: r => nfields r
  | _ :: r => 1 + nfields r
  end.

Lemma nfields_nonneg parts : 0 <= nfields parts.
Proof. induction parts as [|[s|c|w o] r IH]; cbn [nfields]; lia. Qed.

Lemma nfields_le_length parts : nfields parts <= zlen (map (fun _ => 0) parts).
Proof.
  unfold zlen. induction parts as [|[s|c|w o] r IH]; cbn [nfields map length]; lia.
Qed.

(* one piece of text per part; the j-th field takes the j-th value *)
Fixpoint pieces (parts : list upart) (vals : list uval) : option (list str) :=
  match parts with
  | [] => match vals with [] => Some [] | _ => None end
  | PNon s :: r => option_map (cons s) (pieces r vals)
  | PStrF c :: r =>
    match vals with
    | UStr s :: vs =>
      if c =? ch_bang then
        match s with
        | d :: _ => option_map (cons [d]) (pieces r vs)
        | [] => None
        end
      else option_map (cons s) (pieces r vs)
    | _ => None
    end
  | PNumF w o :: r =>
    match vals with
    | v :: vs =>
      match render_num w o v with
      | UOk t => option_map (cons t) (pieces r vs)
      | UCrash _ => None
      end
    | [] => None
    end
  end.

Lemma values_left_to_right : forall parts n vals i out s,
  render parts n vals i out = UOk s ->
  exists ps, pieces parts vals = Some ps /\ s = out ++ concat ps.
Proof.
  induction parts as [|p r IH]; intros n vals i out s H.
  - destruct vals; [|discriminate]. injection H as <-.
    exists []. now rewrite app_nil_r.
  - assert (Hr : forall vs j t, render r n vs j (out ++ t) = UOk s ->
                 exists ps, option_map (cons t) (pieces r vs) = Some ps /\ s = out ++ concat ps).
    { intros vs j t Hs. destruct (IH _ _ _ _ _ Hs) as (ps & -> & ->).
      exists (t :: ps). rewrite <- app_assoc. split; reflexivity. }
    destruct p as [t|c|w o]; cbn [render pieces] in H |- *.
    + now apply Hr in H.
    + destruct (i >=? n); [discriminate|].
      destruct vals as [|[| |sv] vs]; try discriminate.
      destruct (c =? ch_bang); [destruct sv as [|d sv']; [discriminate|]|]; now apply Hr in H.
    + destruct (i >=? n); [discriminate|].
      destruct vals as [|v vs]; [discriminate|].
      destruct (render_num w o v) as [t|k]; [|discriminate]. now apply Hr in H.
Qed.

Lemma render_app : forall p1 p2 n vals1 vals2 i out s1,
  render p1 n vals1 i out = UOk s1 ->
  render (p1 ++ p2) n (vals1 ++ vals2) i out = render p2 n vals2 (i + nfields p1) s1.
Proof.
  induction p1 as [|p r IH]; intros p2 n vals1 vals2 i out s1 H.
  - destruct vals1; [|discriminate]. injection H as <-.
    cbn [app nfields]. now rewrite Z.add_0_r.
  - destruct p as [t|c|w o]; cbn [render app nfields] in H |- *.
    + apply IH, H.
    + destruct (i >=? n); [discriminate|].
      destruct vals1 as [|[| |sv] vs]; try discriminate. cbn [app].
      destruct (c =? ch_bang); [destruct sv as [|d sv']; [discriminate|]|];
        rewrite (IH _ _ _ _ _ _ _ H), Z.add_assoc; reflexivity.
    + destruct (i >=? n); [discriminate|].
      destruct vals1 as [|v vs]; [discriminate|]. cbn [app].
      destruct (render_num w o v) as [t|k]; [|discriminate].
      rewrite (IH _ _ _ _ _ _ _ H), Z.add_assoc. reflexivity.
Qed.

(* where the unchanged code does not crash: as many values as fields, a
   string for every "&"/"!", a non-empty one for "!", a number for every
   numeric field *)
Fixpoint types_match (parts : list upart) (vals : list uval) : bool :=
  match parts with
  | [] => match vals with [] => true | _ => false end
  | PNon _ :: r => types_match r vals
  | PStrF c :: r =>
    match vals with
    | UStr s :: vs => (negb (c =? ch_bang) || negb (zlen s =? 0)) && types_match r vs
    | _ => false
    end
  | PNumF _ _ :: r =>
    match vals with
    | UInt _ :: vs | UFlt _ :: vs => types_match r vs
    | _ => false
    end
  end.

Definition total_guard (fmt : str) (vals : list uval) : bool :=
  match parse_format fmt with
  | Some parts => types_match parts vals
  | None => false                      (* the format ends in "_" *)
  end.

(* a field within the count leaves room for those behind it *)
Lemma field_in_range i k n : 0 <= k -> i + (1 + k) <= n -> (i >=? n) = false /\ i + 1 + k <= n.
Proof. lia. Qed.

Lemma render_total : forall parts n vals i out,
  types_match parts vals = true -> i + nfields parts <= n ->
  exists s, render parts n vals i out = UOk s.
Proof.
  induction parts as [|p r IH]; intros n vals i out Ht Hn.
  - destruct vals; [|discriminate]. eexists; reflexivity.
  - pose proof (nfields_nonneg r) as Hr.
    destruct p as [t|c|w o]; cbn [types_match render nfields] in Ht, Hn |- *.
    + apply IH; assumption.
    + destruct (field_in_range i _ n Hr Hn) as [-> Hn'].
      destruct vals as [|[| |sv] vs]; try discriminate.
      apply andb_true_iff in Ht as [Hb Ht].
      destruct (c =? ch_bang); [destruct sv as [|d sv']; [discriminate|]|];
        apply IH; assumption.
    + destruct (field_in_range i _ n Hr Hn) as [-> Hn'].
      destruct vals as [|[| |] vs]; try discriminate.
      (* format() has a text for a number, with or without a precision *)
      all: rewrite render_num_finish; cbn [py_format_num]; destruct (code_prec w o).
      all: apply IH; assumption.
Qed.

Lemma render_partial : forall parts n vals i out,
  parts_reasons parts vals = [] -> i + nfields parts <= n ->
  exists t, render parts n vals i out = UOk (out ++ t) /\ spec_parts parts vals = Some t.
Proof.
  induction parts as [|p r IH]; intros n vals i out Hr Hn.
  - destruct vals; [|discriminate]. exists []. now rewrite app_nil_r.
  - pose proof (nfields_nonneg r) as Hnn.
    (* whatever text x the first part gives, the rest follows it *)
    assert (Hrest : forall vs j x, parts_reasons r vs = [] -> j + nfields r <= n ->
              exists t, render r n vs j (out ++ x) = UOk (out ++ t) /\
                        option_map (app x) (spec_parts r vs) = Some t).
    { intros vs j x Hr' Hj. destruct (IH n vs j (out ++ x) Hr' Hj) as (t' & -> & ->).
      exists (x ++ t'). rewrite app_assoc. split; reflexivity. }
    destruct p as [t|c|w o]; cbn [parts_reasons render spec_parts nfields] in Hr, Hn |- *.
    + apply Hrest; assumption.
    + destruct (field_in_range i _ n Hnn Hn) as [-> Hn'].
      destruct vals as [|[| |sv] vs]; try discriminate.
      apply app_eq_nil in Hr as [Hb Hr].
      destruct (c =? ch_bang); [destruct sv as [|d sv']; [discriminate|]; apply (Hrest vs _ [d])|
                                apply Hrest]; assumption.
    + destruct (field_in_range i _ n Hnn Hn) as [-> Hn'].
      destruct vals as [|v vs]; [discriminate|].
      apply app_eq_nil in Hr as [Hf Hr].
      destruct (num_field_partial w o v) as (tf & -> & ->); [unfold field_guard; now rewrite Hf|].
      apply Hrest; assumption.
Qed.

(* C19, the whole format, guarded *)
Lemma using_partial fmt vals :
  using_guard fmt vals = true ->
  exists t, using_format fmt vals = UOk t /\ using_spec fmt vals = Some t.
Proof.
  unfold using_guard, using_reasons, using_format, using_spec.
  destruct (parse_format fmt) as [parts|]; [|discriminate].
  destruct (parts_reasons parts vals) eqn:E; [|discriminate]. intros _.
  apply (render_partial parts _ vals 0 [] E), nfields_le_length.
Qed.

Definition args_vals (args : list parg) : list cell :=
  flat_map (fun a => match a with AVal c => [c] | _ => [] end) args.

Definition args_end_sep (args : list parg) : bool :=
  match rev args with
  | last :: _ => arg_is_sep last
  | [] => false
  end.

Lemma using_newline_rule fs args uv s :
  args <> [] ->
  map_opt uval_of_cell (args_vals args) = Some uv ->
  using_format fs uv = UOk s ->
  emit (Some (CStr fs)) args = OutText (if args_end_sep args then [s] else [s; crlf]).
Proof.
  intros Hne Huv Hs. unfold emit, using_format, args_end_sep in *.
  destruct (parse_format fs) as [parts|]; [|discriminate].
  destruct (rev args) as [|last rest] eqn:E.
  - apply (f_equal (@rev parg)) in E. rewrite rev_involutive in E. contradiction.
  - fold (args_vals args). rewrite Huv, Hs. now destruct (arg_is_sep last).
Qed.

(* the text holds no '%' *)
Definition np (s : str) : bool := forallb (fun c => negb (c =? ch_pct)) s.

Lemma np_app a b : np (a ++ b) = np a && np b.
Proof. apply forallb_app. Qed.

Lemma np_cons c s : np (c :: s) = negb (c =? ch_pct) && np s.
Proof. reflexivity. Qed.

Lemma np_rev a : np (rev a) = np a.
Proof.
  induction a as [|c a IH]; [reflexivity|]. cbn [rev].
  rewrite np_app, IH, !np_cons. cbn [np forallb]. now destruct (np a), (c =? ch_pct).
Qed.

Lemma np_split n s : np s = true -> np (firstn n s) = true /\ np (skipn n s) = true.
Proof. intro H. rewrite <- (firstn_skipn n s), np_app in H. now apply andb_true_iff in H. Qed.

Lemma np_repeat c n : (c =? ch_pct) = false -> np (repeat c n) = true.
Proof. intro H. induction n as [|n IH]; [reflexivity|]. cbn [repeat]. now rewrite np_cons, H, IH. Qed.

Lemma np_pad w r : np (pad w r) = np r.
Proof. rewrite pad_spaces, np_app. unfold spaces. now rewrite np_repeat. Qed.

Lemma np_nat_digits z : 0 <= z -> np (nat_digits z) = true.
Proof.
  intro H. apply nat_digits_all_digits in H. unfold np. rewrite forallb_forall in *.
  intros c Hc. apply H in Hc. unfold is_digit in Hc. unfold ch_pct. lia.
Qed.

Lemma np_group3_rev : forall s cnt, np (group3_rev s cnt) = np s.
Proof.
  induction s as [|c s IH]; intro cnt; [reflexivity|]. cbn [group3_rev].
  destruct cnt as [|[|[|[|cnt]]]]; rewrite ?np_cons, IH; reflexivity.
Qed.

Lemma np_group3 s : np (group3 s) = np s.
Proof. unfold group3. now rewrite np_rev, np_group3_rev, np_rev. Qed.

Lemma span_digits_app s : let '(a, b) := span_digits s in a ++ b = s.
Proof.
  induction s as [|c s IH]; [reflexivity|]. cbn [span_digits].
  destruct (is_digit c); [|reflexivity]. destruct (span_digits s) as [a b]. cbn [app]. now rewrite IH.
Qed.

Lemma np_group_int_part s : np (group_int_part s) = np s.
Proof.
  unfold group_int_part. pose proof (span_digits_app s) as E.
  destruct (span_digits s) as [a b]. subst s. now rewrite !np_app, np_group3.
Qed.

Lemma np_py_fixed x prec : np (py_fixed x prec) = true.
Proof.
  destruct x as [|n|n m e]; [reflexivity | reflexivity |].
  rewrite py_fixed_unfold. cbv zeta.
  set (ds := pad_zeros _ _).
  assert (Hds : np ds = true).
  { unfold ds, pad_zeros. rewrite np_app, np_repeat, np_nat_digits by
      (reflexivity || apply fixed_scaled_nonneg). reflexivity. }
  destruct (np_split (length ds - Z.to_nat prec) ds Hds) as [Hi Hf].
  destruct (prec <=? 0); [exact Hi|]. now rewrite !np_app, Hi, Hf.
Qed.

(* the digit strings of repr: the shortest decimal is not negative, which
   nat_digits needs ("0" + z is '%' for z = -11) *)

Lemma if_fst_nonneg (b : bool) (x y : Z * Z) :
  0 <= fst x -> 0 <= fst y -> 0 <= fst (if b then x else y).
Proof. now destruct b. Qed.

Lemma shortest_from_nonneg : forall fuel x neg top rest q n,
  0 <= top -> 0 <= fst (shortest_from x neg top rest q n fuel).
Proof.
  induction fuel as [|f IH]; intros x neg top rest q n Ht; [exact Ht|].
  cbn [shortest_from]. cbv zeta.
  assert (Hd : 0 <= top / 10 ^ (topd - n)) by (apply Z_div_nonneg_nonneg, Z.pow_nonneg; lia).
  repeat apply if_fst_nonneg; cbn [fst]; try lia. now apply IH.
Qed.

Lemma strip10_nonneg : forall fuel c k, 0 <= c -> 0 <= fst (strip10 fuel c k).
Proof.
  induction fuel as [|f IH]; intros c k Hc; [exact Hc|].
  cbn [strip10]. apply if_fst_nonneg; [|exact Hc]. apply IH, Z_div_nonneg_nonneg; lia.
Qed.

Lemma shortest_nonneg neg m e : 0 < m -> 0 <= fst (shortest neg m e).
Proof.
  intro Hm. unfold shortest.
  pose proof (exact_dec_nonneg m e ltac:(lia)) as HN.
  destruct (exact_dec m e) as [N q]. cbn [fst] in HN.
  unfold top17. destruct (ndigits N <=? topd); apply shortest_from_nonneg.
  - apply Z.mul_nonneg_nonneg; [lia|]. apply Z.pow_nonneg; lia.
  - apply Z_div_nonneg_nonneg; [lia|]. apply Z.pow_nonneg; lia.
Qed.

Lemma np_format_repr ds decpt : np ds = true -> np (format_repr ds decpt) = true.
Proof.
  intro H. unfold format_repr, zeros. destruct (np_split (Z.to_nat decpt) ds H) as [Hi Hf].
  destruct (_ && _).
  - destruct (decpt <=? 0); [|destruct (_ <=? decpt)];
      rewrite !np_app, ?np_repeat, ?H, ?Hi, ?Hf by reflexivity; reflexivity.
  - assert (Ht : np (two_digits (Z.abs (decpt - 1))) = true).
    { unfold two_digits. destruct (_ <? 10); [rewrite np_cons|];
        now rewrite np_nat_digits by apply Z.abs_nonneg. }
    rewrite np_app. apply andb_true_iff. split.
    + destruct ds as [|d [|d2 r]]; [reflexivity | exact H | exact H].
    + rewrite !np_app, Ht. now destruct (decpt - 1 <? 0).
Qed.

Lemma np_py_repr x : np (py_repr x) = true.
Proof.
  destruct x as [|n|n m e]; [reflexivity | now destruct n |].
  unfold py_repr. destruct (Z.leb_spec m 0) as [Hm|Hm]; [now destruct n|].
  unfold repr_digits.
  pose proof (shortest_nonneg n m e Hm) as Hs.
  destruct (shortest n m e) as [c k]. cbn [fst] in Hs.
  pose proof (strip10_nonneg 20 c k Hs) as Hs'.
  destruct (strip10 20 c k) as [c' k']. cbn [fst] in Hs'.
  rewrite np_app, np_format_repr by (now apply np_nat_digits). now destruct n.
Qed.

Lemma np_py_format_num v comma prec :
  match py_format_num v comma prec with UOk body => np body = true | UCrash _ => True end.
Proof.
  destruct v as [z|f|s], prec as [p|], comma; cbn [py_format_num]; try exact I;
    rewrite ?np_group_int_part, ?np_group3;
    apply np_py_fixed || apply np_py_repr || apply np_nat_digits, Z.abs_nonneg.
Qed.

Lemma np_signed at_end sign body :
  np body = true -> (sign =? ch_pct) = false -> np (signed at_end sign body) = true.
Proof.
  intros Hb Hs. unfold signed. destruct at_end; [destruct (sign =? ch_minus)|];
    now rewrite ?np_cons, ?np_app, ?np_cons, Hb, Hs.
Qed.

Lemma np_trim b e w r : np r = true -> np (trim b e w r) = true.
Proof.
  intro H. unfold trim. destruct (_ && _); [|exact H]. destruct e.
  - rewrite removelast_firstn_len. now apply np_split.
  - destruct r; [reflexivity | apply (np_split 1 _ H)].
Qed.

(* trimming takes one character, and only from a text that is too long *)
Lemma zlen_trim b e w r : w <= zlen r -> w <= zlen (trim b e w r).
Proof.
  intro H. unfold trim. destruct b; [|exact H]. cbn [andb].
  destruct (Z.gtb_spec (zlen r) w) as [G|G]; [|exact H]. destruct e.
  - rewrite removelast_firstn_len. unfold zlen in *. rewrite firstn_length. lia.
  - destruct r; [exact H|]. rewrite zlen_cons in G. cbn [tl]. lia.
Qed.

(* the text before marking: never contains '%', at least as long as the field *)
Lemma render_num_shape w o v s :
  render_num w o v = UOk s ->
  exists r, np r = true /\ w <= zlen r /\ s = mark w r.
Proof.
  rewrite render_num_finish. pose proof (np_py_format_num v (o_comma o) (code_prec w o)) as E.
  destruct (py_format_num _ _ _) as [body|k]; [|discriminate]. intros [= <-].
  refine (ex_intro _ _ (conj _ (conj _ eq_refl))).
  - apply np_trim. rewrite np_pad. apply np_signed; [exact E|].
    unfold sign_char. now destruct (_ =? ch_minus), (uval_neg v).
  - apply zlen_trim. rewrite zlen_pad. lia.
Qed.

(* every numeric field, every value: the text is never shorter than the
   field, and exactly as wide unless it carries the mark *)
Lemma num_field_width w o v s :
  render_num w o v = UOk s ->
  w <= zlen s /\ (hd_error s <> Some ch_pct -> zlen s = w).
Proof.
  intro H. destruct (render_num_shape w o v s H) as (r & Hn & Hl & ->). unfold mark.
  destruct (Z.gtb_spec (zlen r) w).
  - rewrite zlen_cons. split; [lia|]. intro C. now destruct C.
  - split; [exact Hl|]. intros _. lia.
Qed.

(* the mark: present exactly when the text exceeds the field, and then it is
   "%" followed by the widened text, which alone is already too long *)
Lemma overflow_mark w o v s :
  1 <= w -> render_num w o v = UOk s ->
  (hd_error s = Some ch_pct <-> w < zlen s) /\
  (w < zlen s -> exists r, s = ch_pct :: r /\ w < zlen r /\ np r = true).
Proof.
  intros Hw H. destruct (render_num_shape w o v s H) as (r & Hn & Hl & ->). unfold mark.
  destruct (Z.gtb_spec (zlen r) w) as [G|G].
  - rewrite zlen_cons. split.
    + split; [lia | reflexivity].
    + intros _. exists r. repeat split; [lia | exact Hn].
  - split; [|lia]. split; [|lia]. intro Hh. exfalso.
    destruct r as [|c r]; [discriminate|]. injection Hh as ->. discriminate Hn.
Qed.

Lemma rne_div_nearest a p : 0 < p ->
  2 * Z.abs (rne_div a p * p - a) <= p /\
  (2 * (a mod p) = p -> Z.even (rne_div a p) = true).
Proof.
  intro Hp. unfold rne_div.
  pose proof (Z_div_mod_eq_full a p) as Hd.
  pose proof (Z.mod_pos_bound a p Hp) as Hm.
  set (d := a / p) in *. set (r := a mod p) in *.
  destruct (Z.ltb_spec (2 * r) p); [lia|].
  destruct (Z.ltb_spec p (2 * r)); [lia|].
  destruct (Z.even d) eqn:E; (split; [lia|]); intros _; [exact E|].
  now rewrite Z.even_add, E.
Qed.

(* [exact_dec m e] = (N, q) says m * 2^e = N * 10^q exactly *)
Lemma exact_dec_value m e N q : exact_dec m e = (N, q) ->
  (0 <= e -> q = 0 /\ N = m * 2 ^ e) /\
  (e < 0 -> q = e /\ N * 2 ^ (- e) = m * 10 ^ (- e)).
Proof.
  unfold exact_dec. destruct (Z.geb_spec e 0) as [He|He]; intros [= <- <-].
  - split; [|lia]. intros _. split; [reflexivity|]. apply Z.shiftl_mul_pow2. lia.
  - split; [lia|]. intros _. split; [reflexivity|].
    change 10 with (5 * 2). rewrite Z.pow_mul_l. ring.
Qed.
