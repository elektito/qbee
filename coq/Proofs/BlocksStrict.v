(* The whole front (assembler + Pass1 block checks + stray markers) against the
   strict block grammar [balanced]. *)
From Coq Require Import ZArith List Bool.
From QV Require Import Blocks BlocksSpec BlocksProofs BlocksErrors.
Import ListNotations.
Open Scope Z_scope.

Lemma first_some_none {A B} (f : A -> option B) l :
  first_some f l = None <-> Forall (fun x => f x = None) l.
Proof.
  induction l as [|x l IH]; simpl; [split; constructor|].
  rewrite Forall_cons_iff, <- IH. destruct (f x); intuition discriminate.
Qed.

Lemma first_some_some {A B} (f : A -> option B) l y :
  first_some f l = Some y -> exists x, In x l /\ f x = Some y.
Proof.
  induction l as [|x l IH]; simpl; [discriminate|].
  destruct (f x) eqn:E.
  - intros [= <-]. eauto.
  - intros H. destruct (IH H) as (x' & Hin & Hx). eauto.
Qed.

Lemma existsb_false {A} (f : A -> bool) l :
  existsb f l = false <-> Forall (fun x => f x = false) l.
Proof.
  induction l as [|x l IH]; simpl; [split; constructor|].
  rewrite Forall_cons_iff, <- IH. apply orb_false_iff.
Qed.

Lemma no_case_else_forest t ts :
  no_case_else (flatten_forest ts) -> In t ts -> no_case_else (flatten t).
Proof.
  unfold no_case_else. intros H Hin. rewrite Forall_forall in *. intros y Hy.
  apply H. apply (in_forest t); assumption.
Qed.

Lemma no_case_else_block k o b e :
  no_case_else (flatten (TBlock k o b e)) -> no_case_else (flatten_forest b).
Proof.
  simpl. intros H. inversion H as [|? ? _ H']. apply Forall_app in H'. apply H'.
Qed.

Lemma body_ok_strict k o b e :
  no_case_else (flatten_forest b) -> (body_ok true k o b e <-> body_ok false k o b e).
Proof.
  intros Hn. destruct k; simpl; try tauto.
  split; (intros [E | (s & r & E & [Hs | [Hf Hs]])];
          [left; assumption | right; exists s, r; auto |]).
  - subst b. inversion Hn as [|? ? H1 _]. contradiction.
  - discriminate.
Qed.

Lemma pass1_block par in_if r k o b e :
  pass1 par in_if r (TBlock k o b e) = None <->
  position_ok r k b /\
  first_some (pass1 (Some k) (in_if || is_if k) (r || is_routine k)) b = None.
Proof.
  destruct k; simpl; try tauto; destruct r; try (intuition discriminate).
  destruct b; intuition discriminate.
Qed.

Definition kid_ok (p : option bkind) (r : bool) (t : tree) : Prop :=
  (exists s k, t = TStmt s /\ p = Some k /\ marker_of k (sk s) = true) \/ wfs r t.

Lemma kids_kid_ok r k b : kids r k b <-> Forall (kid_ok (Some k) r) b.
Proof.
  split.
  - induction 1; constructor; auto; [left; eauto | right; assumption].
  - induction 1 as [|t b Ht _ IH]; [constructor|].
    destruct Ht as [(s & k' & -> & [= <-] & Hm) | Hw].
    + apply kids_marker; assumption.
    + apply kids_tree; assumption.
Qed.

Definition passes (p : option bkind) (in_if r : bool) (t : tree) : Prop :=
  wfa t /\ pass1 p in_if r t = None /\ stray p t = false.

Lemma Forall_passes par in_if r ts :
  Forall (passes par in_if r) ts <->
  Forall wfa ts /\ first_some (pass1 par in_if r) ts = None /\ existsb (stray par) ts = false.
Proof.
  rewrite first_some_none, existsb_false, !Forall_forall. unfold passes. split.
  - intros H. repeat split; intros t Ht; apply (H t Ht).
  - intros (H1 & H2 & H3) t Ht. auto.
Qed.

Lemma marker_passes k s in_if r :
  marker_of k (sk s) = true -> passes (Some k) in_if r (TStmt s).
Proof.
  intros H. unfold passes. simpl.
  destruct k, (sk s) eqn:E; try discriminate H;
    (repeat split; apply wfa_stmt; rewrite E; reflexivity).
Qed.

Lemma passes_iff_kid_ok t : forall p in_if r,
  no_case_else (flatten t) -> (passes p in_if r t <-> kid_ok p r t).
Proof.
  induction t as [s | k o b e IH] using tree_ind'; intros p in_if r Hn.
  - split.
    + intros (Hw & Hp & Hs). inversion Hw as [? Ho He|]; subst.
      inversion Hn as [|? ? Hce _]; subst. simpl in Hp, Hs.
      destruct (sk s) eqn:E; try discriminate; try contradiction.
      (* what remains: a plain statement, and ELSEIF, ELSE, CASE, a field, which [stray]
         lets pass only under the block whose marker it is *)
      { right. apply wfs_stmt. assumption. }
      all: destruct p as [[]|]; try discriminate; left; exists s; rewrite E; eauto.
    + intros [(s' & k & [= <-] & -> & Hm) | Hw]; [apply marker_passes; assumption|].
      inversion Hw as [? ? Hs|]; subst. unfold passes. simpl. rewrite Hs. repeat split.
      apply wfa_stmt; rewrite Hs; reflexivity.
  - pose proof (no_case_else_block _ _ _ _ Hn) as Hn'.
    assert (Hch : Forall (passes (Some k) (in_if || is_if k) (r || is_routine k)) b <->
                  kids (r || is_routine k) k b).
    { rewrite kids_kid_ok, !Forall_forall. rewrite Forall_forall in IH.
      split; intros H t Ht;
        apply (IH t Ht _ (in_if || is_if k) _ (no_case_else_forest t b Hn' Ht)), H, Ht. }
    rewrite Forall_passes in Hch. split.
    + intros (Hw & Hp & Hs). inversion Hw as [| ? ? ? ? Ho He Hkids Hbody]; subst.
      apply pass1_block in Hp. destruct Hp as [Hpos Hp].
      right. apply wfs_block; try assumption.
      * apply body_ok_strict; assumption.
      * apply Hch. auto.
    + intros [(s' & _ & [=] & _) | Hw].
      inversion Hw as [| ? ? ? ? ? Ho He Hbody Hpos Hkids]; subst.
      apply Hch in Hkids. destruct Hkids as (Hwb & Hpb & Hsb). repeat split.
      * apply wfa_block; try assumption. apply body_ok_strict; assumption.
      * apply pass1_block. auto.
      * exact Hsb.
Qed.

Lemma kid_ok_top r t : kid_ok None r t <-> wfs r t.
Proof. split; [intros [(s & k & _ & [=] & _) | H]; exact H | right; assumption]. Qed.

Lemma passes_top ts :
  no_case_else (flatten_forest ts) ->
  (Forall (passes None false false) ts <-> Forall (wfs false) ts).
Proof.
  intros Hn. rewrite !Forall_forall.
  assert (E : forall t, In t ts -> (passes None false false t <-> wfs false t)).
  { intros t Ht. rewrite <- kid_ok_top. apply passes_iff_kid_ok, (no_case_else_forest t ts Hn Ht). }
  split; intros H t Ht; apply (E t Ht), H, Ht.
Qed.

Lemma front_accepts l ts :
  no_case_else l -> (front l = ROk ts <-> Forall (wfs false) ts /\ flatten_forest ts = l).
Proof.
  intros Hn. unfold front. split.
  - destruct (assemble l) as [ts'| |] eqn:Ea; try discriminate.
    destruct (assemble_sound_asm _ _ Ea) as [Hw <-].
    destruct (first_some (pass1 None false false) ts') as [[e ln]|] eqn:Ep; [discriminate|].
    destruct (existsb (stray None) ts') eqn:Es; [discriminate|]. intros [= <-].
    split; [|reflexivity]. apply passes_top, Forall_passes; auto.
  - intros [Hw <-]. apply passes_top, Forall_passes in Hw; [|assumption].
    destruct Hw as (Hw & Hp & Hs). rewrite (assemble_complete_asm _ Hw), Hp, Hs. reflexivity.
Qed.

Lemma pass1_err_in t : forall par in_if r e ln,
  pass1 par in_if r t = Some (e, ln) -> exists y, In y (flatten t) /\ sl y = ln.
Proof.
  induction t as [s | k o b e' IH] using tree_ind'; intros par in_if r e ln H; simpl in H.
  - exists s. split; [left; reflexivity|].
    destruct (sk s); try discriminate; destruct par as [[]|]; try discriminate;
      destruct in_if; try discriminate; inversion H; reflexivity.
  - assert (Hc : ln = sl o \/
                 first_some (pass1 (Some k) (in_if || is_if k) (r || is_routine k)) b = Some (e, ln)).
    { destruct k; auto; destruct r; try (injection H as _ <-; auto); auto.
      destruct b; [injection H as _ <- |]; auto. }
    destruct Hc as [-> | Hc]; [exists o; split; [left|]; reflexivity|].
    apply first_some_some in Hc. destruct Hc as (t & Ht & Hp).
    rewrite Forall_forall in IH. destruct (IH t Ht _ _ _ _ _ Hp) as (y & Hy & Hl).
    exists y. split; [|assumption]. simpl. right. apply in_or_app. left.
    apply (in_forest t); assumption.
Qed.

Lemma front_error_in_stream l e ln :
  front l = RErr e ln -> exists y, In y l /\ sl y = ln.
Proof.
  unfold front. intros H. destruct (assemble l) as [ts| e' ln'|] eqn:Ea.
  - destruct (assemble_sound_asm _ _ Ea) as [_ <-].
    destruct (first_some (pass1 None false false) ts) as [[e1 l1]|] eqn:Ep.
    + injection H as -> ->. apply first_some_some in Ep. destruct Ep as (t & Ht & Hp).
      destruct (pass1_err_in _ _ _ _ _ _ Hp) as (y & Hy & Hl).
      exists y. split; [apply (in_forest t)|]; assumption.
    + destruct (existsb (stray None) ts); discriminate.
  - injection H as -> ->. apply (assemble_error_in_stream _ _ _ Ea).
  - discriminate.
Qed.

(* the block part of C05, under its guard *)
Definition no_crash (l : list stmt) : Prop := forall c, front l <> RCrash c.

Lemma blocks_verdict_partial l :
  no_case_else l -> no_crash l ->
  (balanced l /\ exists ts, front l = ROk ts) \/
  (~ balanced l /\ exists e ln, front l = RErr e ln /\ exists y, In y l /\ sl y = ln).
Proof.
  intros Hn Hc. destruct (front l) as [ts|e ln|c] eqn:Ef.
  - left. split; [|eauto]. exists ts. apply (front_accepts l ts Hn), Ef.
  - right. split.
    + intros [ts Hb]. apply (front_accepts l ts Hn) in Hb. congruence.
    + exists e, ln. split; [reflexivity|]. apply (front_error_in_stream _ _ _ Ef).
  - exfalso. apply (Hc c). exact Ef.
Qed.

(* a CASE ELSE outside any SELECT is accepted *)
Lemma case_else_accepted_refuted :
  exists l ts, front l = ROk ts /\ ~ balanced l.
Proof.
  exists [mkS SCaseElse 1], [TStmt (mkS SCaseElse 1)]. split; [reflexivity|].
  intros [ts [Hw Hf]]. destruct ts as [|[s|k o b e] ts]; [discriminate| |].
  - injection Hf as -> _. inversion Hw as [|? ? Ht _]. inversion Ht. discriminate.
  - injection Hf as _ Hf. destruct (flat_map flatten b); discriminate.
Qed.

(* SELECT CASE x / CASE ELSE / END SELECT is in the grammar but rejected *)
Lemma case_else_first_rejected_refuted :
  exists l e ln, balanced l /\ front l = RErr e ln.
Proof.
  exists [mkS SSelect 1; mkS SCaseElse 2; mkS SEndSelect 3], ESelectBeforeCase, 2.
  split; [|reflexivity].
  exists [TBlock BSelect (mkS SSelect 1) [TStmt (mkS SCaseElse 2)] (mkS SEndSelect 3)].
  split; [|reflexivity].
  constructor; [|constructor].
  apply wfs_block; try reflexivity.
  - simpl. right. exists (mkS SCaseElse 2), []. split; [reflexivity|]. right. split; reflexivity.
  - apply kids_marker; [reflexivity | apply kids_nil].
Qed.

(* static block faults that end in an internal exception instead of a diagnostic *)
Lemma elseif_after_else_crash_refuted :
  front [mkS SIfOpen 1; mkS SElse 2; mkS SElseIf 3; mkS SEndIf 4] = RCrash CAssertIf.
Proof. reflexivity. Qed.

Lemma stray_field_crash_refuted : front [mkS (SField 0) 1] = RCrash CCodegen.
Proof. reflexivity. Qed.
