(* Lemmas behind Props/C16.v: number -> text -> number. *)
From Coq Require Import ZArith List Bool Lia ZifyBool.
From QV Require Import Sx Strs Fl Dec NumFmt Cell Print PrintProofs Literal NumSpec NumText UsingDigits.
Import ListNotations.
Open Scope Z_scope.

Lemma forallb_impl {A} (p q : A -> bool) l :
  (forall a, p a = true -> q a = true) -> forallb p l = true -> forallb q l = true.
Proof. rewrite !forallb_forall. auto. Qed.

Lemma drop_while_none p s : forallb (fun c => negb (p c)) s = true -> drop_while p s = s.
Proof. destruct s as [|c r]; simpl; [reflexivity|]. now destruct (p c). Qed.

Lemma py_strip_none s : forallb (fun c => negb (is_py_space c)) s = true -> py_strip s = s.
Proof.
  intro H. unfold py_strip, drop_while_end. rewrite (drop_while_none _ s H).
  rewrite drop_while_none, rev_involutive; [reflexivity|].
  rewrite forallb_forall in *. intros c Hc. apply H, in_rev, Hc.
Qed.

Lemma span_all p ds : forallb p ds = true -> span p ds = (ds, []).
Proof.
  induction ds as [|c r IH]; simpl; intro H; [reflexivity|].
  apply andb_true_iff in H as [Hc Hr]. now rewrite Hc, IH.
Qed.

Lemma index_of_none p c s :
  p c = false -> forallb p s = true -> forall i, index_of c s i = None.
Proof.
  intro Hc. induction s as [|d r IH]; simpl; intros H i; [reflexivity|].
  apply andb_true_iff in H as [Hd Hr].
  destruct (Z.eqb_spec d c) as [->|]; [congruence | now apply IH].
Qed.

Lemma mem_ch_none p c s : p c = false -> forallb p s = true -> mem_ch c s = false.
Proof. intros Hc H. unfold mem_ch. now rewrite (index_of_none p c s Hc H). Qed.

Lemma index_of_is_some c s : forall i j,
  match index_of c s i with Some _ => true | None => false end =
  match index_of c s j with Some _ => true | None => false end.
Proof.
  induction s as [|d r IH]; intros i j; simpl; [reflexivity|].
  destruct (d =? c); [reflexivity | apply IH].
Qed.

Lemma mem_ch_cons c d s : (d =? c) = false -> mem_ch c (d :: s) = mem_ch c s.
Proof. intro H. unfold mem_ch. simpl. rewrite H. apply index_of_is_some. Qed.

Lemma digit_not_sign c : is_digit c = true -> is_sign c = false.
Proof. unfold is_digit, is_sign, ch_plus, ch_minus. lia. Qed.

Lemma digit_lower c : is_digit c = true -> lower c = c.
Proof. unfold is_digit, lower. intro H. destruct ((65 <=? c) && (c <=? 90)) eqn:E; lia. Qed.

(* the characters of Python's str(int): digits and the minus sign *)
Definition dm_char (d : Z) : bool := is_digit d || (d =? ch_minus).

Lemma digits_dm ds : forallb is_digit ds = true -> forallb dm_char ds = true.
Proof. apply forallb_impl. intros a Ha. unfold dm_char. now rewrite Ha. Qed.

Lemma dm_not_space c : dm_char c = true -> negb (is_py_space c) = true.
Proof. unfold dm_char, is_digit, ch_minus, is_py_space. lia. Qed.

Lemma dm_not_blank c : dm_char c = true -> negb (is_blank c) = true.
Proof. unfold dm_char, is_digit, ch_minus, is_blank. lia. Qed.

Lemma dm_lower tok : forallb dm_char tok = true -> map lower tok = tok.
Proof.
  induction tok as [|c r IH]; simpl; intro H; [reflexivity|].
  apply andb_true_iff in H as [Hc Hr]. rewrite (IH Hr). f_equal.
  apply orb_true_iff in Hc as [Hc|Hc]; [now apply digit_lower|].
  apply Z.eqb_eq in Hc as ->. reflexivity.
Qed.

Lemma digits_fuel_head fuel : forall z acc,
  0 < z -> z < 2 ^ Z.of_nat (S fuel) ->
  exists d r, digits_fuel fuel z acc = (ch_0 + d) :: r /\ 1 <= d <= 9.
Proof.
  induction fuel as [|f IH]; intros z acc Hz Hlt; cbn [digits_fuel].
  - exists z, acc. simpl in Hlt. split; [reflexivity | lia].
  - destruct (Z.ltb_spec z 10) as [Hs|Hs]; [exists z, acc; split; [reflexivity | lia]|].
    apply IH; [apply Z.div_str_pos; lia | apply (fuel_step f z 10); lia].
Qed.

Lemma nat_digits_head z : 0 < z ->
  exists d r, nat_digits z = (ch_0 + d) :: r /\ 1 <= d <= 9.
Proof.
  intro Hz. unfold nat_digits. apply digits_fuel_head; [exact Hz | apply log2_fuel; lia].
Qed.

Lemma nat_digits_zero : nat_digits 0 = [ch_0].
Proof. reflexivity. Qed.

Definition lead_of (z : Z) : Z := if z <? 0 then ch_minus else ch_space.

Lemma Z_to_dec_eq z :
  Z_to_dec z = (if z <? 0 then [ch_minus] else []) ++ nat_digits (Z.abs z).
Proof.
  unfold Z_to_dec. destruct (Z.ltb_spec z 0).
  - now rewrite Z.abs_neq by lia.
  - now rewrite Z.abs_eq by lia.
Qed.

Lemma fmt_int_shape z :
  fmt_int z = lead_of z :: nat_digits (Z.abs z)
  /\ forallb is_digit (nat_digits (Z.abs z)) = true
  /\ digits_val (nat_digits (Z.abs z)) = Some (Z.abs z)
  /\ (z <> 0 -> exists d r, nat_digits (Z.abs z) = (ch_0 + d) :: r /\ 1 <= d <= 9)
  /\ (z = 0 -> nat_digits (Z.abs z) = [ch_0]).
Proof.
  repeat split.
  - unfold fmt_int, lead_of. rewrite Z_to_dec_eq.
    destruct (Z.geb_spec z 0); destruct (Z.ltb_spec z 0); try lia; reflexivity.
  - apply nat_digits_all_digits. lia.
  - apply nat_digits_val. lia.
  - intro Hz. apply nat_digits_head. lia.
  - intros ->. reflexivity.
Qed.

Lemma digs_val_digits ds : forall acc v, digits_val_acc ds acc = Some v -> digs_val ds acc = v.
Proof.
  induction ds as [|c r IH]; simpl; intros acc v H; [congruence|].
  destruct (is_digit c); [now apply IH | discriminate].
Qed.

Lemma fmt_int_plain z : plain_int_text z (fmt_int z) = true.
Proof.
  destruct (fmt_int_shape z) as (-> & Hall & Hval & Hnz & _).
  destruct (Z.eq_dec z 0) as [->|Hn]; [reflexivity|].
  destruct (Hnz Hn) as (d & r & E & Hd). rewrite E in *. apply digs_val_digits in Hval.
  unfold plain_int_text, lead_of. rewrite Z.eqb_refl, Hall, Hval, Z.eqb_refl.
  destruct r; [reflexivity|]. unfold ch_0. lia.
Qed.

(* Python's str(int), which fmt_int puts after the blank: '-' if z < 0 and a
   non-empty string of digits with value |z|.  It is one token that int()
   reads as z and the scanner of VAL takes whole. *)

Lemma Z_to_dec_shape z : exists c r,
  Z_to_dec z = (if z <? 0 then [ch_minus] else []) ++ c :: r /\
  forallb is_digit (c :: r) = true /\ digits_val_acc (c :: r) 0 = Some (Z.abs z).
Proof.
  pose proof (nat_digits_all_digits (Z.abs z) ltac:(lia)) as Hall.
  pose proof (nat_digits_val (Z.abs z) ltac:(lia)) as Hval.
  rewrite Z_to_dec_eq. destruct (nat_digits (Z.abs z)) as [|c r]; [discriminate | now exists c, r].
Qed.

Lemma Z_to_dec_dm z : forallb dm_char (Z_to_dec z) = true.
Proof.
  destruct (Z_to_dec_shape z) as (c & r & -> & Hall & _).
  rewrite forallb_app, (digits_dm _ Hall). now destruct (z <? 0).
Qed.

Lemma int_digits_start ds : forall acc b,
  forallb is_digit ds = true -> ds <> [] \/ b = true -> int_digits ds acc b = digits_val_acc ds acc.
Proof.
  induction ds as [|c r IH]; intros acc b H Hb; simpl in *.
  - destruct Hb as [Hb | ->]; [congruence | reflexivity].
  - apply andb_true_iff in H as [Hc Hr]. rewrite Hc. apply IH; auto.
Qed.

Lemma py_int_Z_to_dec z : py_int (Z_to_dec z) = Some z.
Proof.
  unfold py_int.
  rewrite py_strip_none by (eapply forallb_impl; [apply dm_not_space | apply Z_to_dec_dm]).
  destruct (Z_to_dec_shape z) as (c & r & -> & Hall & Hval).
  assert (Hc : is_sign c = false) by (apply digit_not_sign; simpl in Hall; lia).
  apply orb_false_iff in Hc as [Hp Hm].
  destruct (Z.ltb_spec z 0); cbn [app].
  - rewrite Z.eqb_refl, int_digits_start, Hval by (assumption || now left). cbn. f_equal. lia.
  - rewrite Hm, Hp, int_digits_start, Hval by (assumption || now left). f_equal. lia.
Qed.

Lemma scan_dec_Z_to_dec z : scan_dec (Z_to_dec z) = Some (Z_to_dec z, []).
Proof.
  destruct (Z_to_dec_shape z) as (c & r & -> & Hall & _).
  assert (Hc : is_sign c = false) by (apply digit_not_sign; simpl in Hall; lia).
  (* the two cases differ only in how the test for a sign is decided *)
  unfold scan_dec. destruct (z <? 0); cbn [app]; cbv beta iota;
    [change (is_sign ch_minus) with true | rewrite Hc];
    cbv beta iota; rewrite (span_all _ _ Hall); cbn [scan_exp app]; now rewrite app_nil_r.
Qed.

(* READ and INPUT: Python int() skips the blank *)
Lemma py_int_space s : py_int (ch_space :: s) = py_int s.
Proof. reflexivity. Qed.

Lemma py_int_fmt_int z : py_int (fmt_int z) = Some z.
Proof.
  unfold fmt_int. destruct (z >=? 0); [rewrite py_int_space|]; apply py_int_Z_to_dec.
Qed.

Lemma no_comma_fmt_int z : mem_ch ch_comma (fmt_int z) = false.
Proof.
  unfold fmt_int. destruct (z >=? 0); [rewrite mem_ch_cons by reflexivity|];
    apply (mem_ch_none dm_char); (reflexivity || apply Z_to_dec_dm).
Qed.

Definition val_of_int (z : Z) : val_result :=
  if (z <? -2147483648) || (z >? 2147483647) then VSyntaxError 7 else VOk (of_Z z).

Lemma val_text_space s : val_text (ch_space :: s) = val_text s.
Proof. reflexivity. Qed.

(* A token of digits and '-' that the scanner takes whole is an integer
   literal without type character: NumericLiteral.parse reads it with int(),
   makes it an INTEGER if it fits and a LONG otherwise, and checks the range. *)
Lemma val_text_int_token tok z :
  forallb dm_char tok = true -> scan_dec tok = Some (tok, []) -> py_int tok = Some z ->
  val_text tok = val_of_int z.
Proof.
  intros Hdm Hscan Hz. unfold val_text, tokenize.
  rewrite drop_while_none by (eapply forallb_impl; [apply dm_not_blank | exact Hdm]).
  rewrite Hscan. cbn [drop_while]. cbv iota beta.
  unfold literal_parse. rewrite (dm_lower _ Hdm).
  replace (starts_amp tok) with false
    by (destruct tok; [reflexivity|]; simpl in *; unfold dm_char, is_digit, ch_minus, ch_amp in *; lia).
  unfold parse_dec.
  rewrite !(mem_ch_none dm_char _ tok) by (reflexivity || exact Hdm).
  cbn [andb negb is_int_ty]. rewrite Hz. cbn [option_map].
  unfold range_check, val_of_int. destruct ((-32768 <=? z) && (z <? 32768)) eqn:E.
  - replace ((z <? -32768) || (z >? 32767)) with false by lia.
    replace ((z <? -2147483648) || (z >? 2147483647)) with false by lia. reflexivity.
  - destruct ((z <? -2147483648) || (z >? 2147483647)); reflexivity.
Qed.

(* VAL(text of z): the number when it fits a LONG, otherwise the host
   SyntaxError "does not fit in LONG" escapes the instruction *)
Lemma val_fmt_int z : val_text (fmt_int z) = val_of_int z.
Proof.
  unfold fmt_int. destruct (z >=? 0); [rewrite val_text_space|];
    apply val_text_int_token; auto using Z_to_dec_dm, scan_dec_Z_to_dec, py_int_Z_to_dec.
Qed.

Definition fl_same_mag (y x : fl) : bool :=
  match y, x with
  | FFin _ a b, FFin _ a' b' => (a =? a') && (b =? b')
  | _, _ => false
  end.

(* one round of the search answers with a candidate it has verified (lo, hi:
   the lower, the upper candidate converts back to x), or goes on *)
Lemma verified_or_next (lo hi up : bool) (d k : Z) (next ck : Z * Z) :
  (if lo && hi then (if up then (d + 1, k) else (d, k))
   else if lo then (d, k) else if hi then (d + 1, k) else next) = ck ->
  (ck = (d, k) /\ lo = true) \/ (ck = (d + 1, k) /\ hi = true) \/ next = ck.
Proof. intros <-. destruct lo, hi; cbn [andb]; [destruct up | | |]; auto. Qed.

(* what round n can answer with: the first n of the 20 digits, d, when only
   zeros follow them, or d or d + 1 when the search itself has converted it
   back with dec_to_fl and found it equal to x *)
Definition round_answer (x : fl) (neg : bool) (top : Z) (rest : bool) (q n c k : Z) : Prop :=
  k = q + (topd - n) /\
  let d := top / 10 ^ (topd - n) in
  (rest = false /\ c = d /\ d * 10 ^ (topd - n) = top)
  \/ ((c = d \/ c = d + 1) /\ fl_same_mag (dec_to_fl neg c k) x = true).

Lemma shortest_from_round x neg top rest q n f c k :
  shortest_from x neg top rest q n (S f) = (c, k) ->
  round_answer x neg top rest q n c k \/ shortest_from x neg top rest q (n + 1) f = (c, k).
Proof.
  cbn [shortest_from]. cbv zeta. intro H.
  destruct (negb (negb (top - top / 10 ^ (topd - n) * 10 ^ (topd - n) =? 0) || rest)) eqn:Est.
  - apply pair_equal_spec in H as [<- <-]. left. split; [reflexivity|]. left. repeat split; lia.
  - apply verified_or_next in H as [(H & Hm) | [(H & Hm) | H]]; [left | left | right; exact H];
      apply pair_equal_spec in H as [-> ->]; (split; [reflexivity|]); right; auto.
Qed.

Lemma shortest_from_cases x neg top rest q : forall fuel n c k,
  shortest_from x neg top rest q n fuel = (c, k) ->
  (c, k) = (top, q) \/
  exists n', n <= n' < n + Z.of_nat fuel /\ round_answer x neg top rest q n' c k.
Proof.
  induction fuel as [|f IH]; intros n c k H.
  - left. simpl in H. congruence.
  - apply shortest_from_round in H as [Hr | H'].
    + right. exists n. split; [lia | exact Hr].
    + destruct (IH _ _ _ H') as [E | (n' & Hn' & Hr)]; [left; exact E | right].
      exists n'. split; [lia | exact Hr].
Qed.

Lemma first_digits_bound top n :
  0 <= top < 10 ^ topd -> 0 <= n <= topd -> 0 <= top / 10 ^ (topd - n) < 10 ^ n.
Proof.
  intros Ht Hn.
  assert (Hp : 0 < 10 ^ (topd - n)) by (apply Z.pow_pos_nonneg; lia).
  split; [apply Z.div_pos; lia|].
  apply Z.div_lt_upper_bound; [exact Hp|].
  rewrite <- Z.pow_add_r by lia. now replace (topd - n + n) with topd by lia.
Qed.

(* The 20 leading digits t of an N with j more, not all of them zero, found by
   two multiplications in place of the division.  The power is a parameter so
   that an evaluation of the premises computes it once. *)
Lemma top17_inexact N q j t p :
  0 < j -> ndigits N = topd + j -> 10 ^ j = p -> t * p < N < (t + 1) * p ->
  top17 N q = (t, true, q + j).
Proof.
  intros Hj HL Hp Hr. unfold top17. cbv zeta. rewrite HL.
  replace (topd + j <=? topd) with false by lia. replace (topd + j - topd) with j by lia.
  rewrite Hp, <- (Z.div_unique N p t (N - t * p)) by lia.
  now replace (N - t * p =? 0) with false by lia.
Qed.

Lemma norm_negb n m e : norm (negb n) m e = fneg (norm n m e).
Proof.
  unfold norm. destruct m as [|p|p]; try reflexivity.
  destruct (strip_pos p e). reflexivity.
Qed.

Lemma round_gen_negb pr emin emax n m e s :
  round_gen pr emin emax (negb n) m e s = fneg (round_gen pr emin emax n m e s).
Proof.
  unfold round_gen. cbv zeta.
  (* no test looks at the sign; each leaf is fzero, FInf or norm of it *)
  repeat match goal with
         | |- context[if ?b then _ else _] => destruct b
         end; try reflexivity; apply norm_negb.
Qed.

Lemma dec_to_fl_negb n c k : dec_to_fl (negb n) c k = fneg (dec_to_fl n c k).
Proof.
  unfold dec_to_fl, dec_to_fl_gen. cbv zeta.
  destruct (c <=? 0); [reflexivity|].
  destruct (k >=? 0); apply round_gen_negb.
Qed.

Lemma same_mag_fneg y x : fl_same_mag (fneg y) (fneg x) = fl_same_mag y x.
Proof. destruct y, x; reflexivity. Qed.

Lemma shortest_from_negb x neg top rest q : forall fuel n,
  shortest_from (fneg x) (negb neg) top rest q n fuel = shortest_from x neg top rest q n fuel.
Proof.
  assert (Hm : forall c k, fl_same_mag (dec_to_fl (negb neg) c k) (fneg x)
                           = fl_same_mag (dec_to_fl neg c k) x)
    by (intros; rewrite dec_to_fl_negb; apply same_mag_fneg).
  (* shortest_from spells the comparison out *)
  unfold fl_same_mag in Hm.
  induction fuel as [|f IH]; intro n; [reflexivity|].
  cbn [shortest_from]. cbv zeta. now rewrite !Hm, IH.
Qed.

Lemma shortest_negb neg m e : shortest (negb neg) m e = shortest neg m e.
Proof.
  unfold shortest. destruct (exact_dec m e) as [N q]. destruct (top17 N q) as [[top rest] q'].
  rewrite norm_negb. apply shortest_from_negb.
Qed.

Lemma py_repr_neg m e : py_repr (FFin true m e) = ch_minus :: py_repr (FFin false m e).
Proof.
  unfold py_repr, repr_digits. destruct (m <=? 0); [reflexivity|].
  rewrite (shortest_negb false m e : shortest true m e = _).
  destruct (shortest false m e) as [c k]. destruct (strip10 20 c k). reflexivity.
Qed.

(* the literal patterns 48 and 46 of strip_dot0 are matches on binary digits:
   split the last two characters until they reduce *)
Lemma strip_dot0_minus s : strip_dot0 (ch_minus :: s) = ch_minus :: strip_dot0 s.
Proof.
  unfold strip_dot0. cbn [rev]. destruct (rev s) as [|a [|b r]]; cbn [app]; [reflexivity | |].
  all: repeat match goal with
              | |- context[match ?p with _ => _ end] => is_var p; destruct p; try reflexivity
              end.
  apply rev_unit.
Qed.

(* the last steps of fmt_float, on the value left by the SINGLE rounding *)
Definition fmt_rounded (single : bool) (x1 : fl) : str :=
  let s := strip_dot0 (py_repr x1) in
  let s := map (fun c => if c =? ch_e then (if single then ch_E else ch_D) else c) s in
  if fl_ge0 x1 then ch_space :: s else s.

(* the text of -x is the text of x with '-' in place of the blank: for every
   DOUBLE, where fmt_float false x is fmt_rounded false x *)
Lemma fmt_rounded_neg single m e : 0 < m ->
  exists digits,
    fmt_rounded single (FFin false m e) = ch_space :: digits /\
    fmt_rounded single (FFin true m e) = ch_minus :: digits.
Proof.
  intro Hm. unfold fmt_rounded. cbv zeta. cbn [fl_ge0 negb].
  replace (m <=? 0) with false by lia. cbn [orb].
  rewrite py_repr_neg, strip_dot0_minus. cbn [map].
  change (ch_minus =? ch_e) with false. eexists. split; reflexivity.
Qed.

(* PRINT and STR$ call the same function *)

Lemma print_str_same_digits c t :
  exec_ntos c = NtosOk t ->
  Print.num_text c = Some t /\
  exec_print (encoded_args None [AVal c]) = OutText [t ++ [ch_space] ++ crlf].
Proof.
  intro H.
  assert (Hn : Print.num_text c = Some t) by (destruct c; try discriminate; now injection H as <-).
  split; [exact Hn|].
  rewrite (exec_print_plain [AVal c] [PNum t]); [cbn; now rewrite <- app_assoc|].
  cbn [map_opt item_of_arg]. destruct c; try discriminate; now rewrite Hn.
Qed.

(* witnesses on the unchanged tree (faithful model): the text of each,
   evaluated once; Props/C16.v reads the refuted clauses off these texts
   (w_double_3e9 has one user there and is evaluated in place) *)

(* the SINGLE value 123456792 *)
Definition w_single_neg : fl := FFin false 15432099 3.
(* the SINGLE nearest to 1.5e-5 *)
Definition w_single_exp : fl := FFin false 8246337 (-39).
(* the DOUBLE 1e300 *)
Definition w_double_big : fl := FFin false 1681218273811815 946.
(* the DOUBLE 3000000000 *)
Definition w_double_3e9 : fl := FFin false 5859375 9.
(* the DOUBLE 2^89 *)
Definition w_double_pow2 : fl := FFin false 1 89.

(* D22 (negative): the digit count includes the '-' sign *)
Lemma fmt_single_neg_plus :
  fmt_float true w_single_neg = [32; 49; 50; 51; 52; 53; 54; 56; 48; 48].
Proof. vm_compute. reflexivity. Qed.

Lemma fmt_single_neg_minus :
  fmt_float true (fneg w_single_neg) = [45; 49; 50; 51; 52; 53; 55; 48; 48; 48].
Proof. vm_compute. reflexivity. Qed.

(* D22 (exponent form): a SINGLE whose repr carries an exponent is not rounded
   to 7 digits at all *)
Lemma fmt_float_single_exp_form x :
  c_float x = x -> mem_ch ch_e (py_repr x) = true -> fmt_float true x = fmt_rounded true x.
Proof.
  intros Hc He. unfold fmt_float. cbv zeta. rewrite Hc, He.
  now destruct (index_of ch_dot (py_repr x) 0).
Qed.

Lemma py_repr_single_exp :
  py_repr w_single_exp =
  [49; 46; 52; 57; 57; 57; 57; 57; 57; 54; 50; 49; 48; 54; 56; 49; 50; 55; 101; 45; 48; 53].
Proof. vm_compute. reflexivity. Qed.

(* the 17 rounds of the search are run once, in py_repr_single_exp *)
Lemma fmt_single_exp :
  fmt_float true w_single_exp =
  [32; 49; 46; 52; 57; 57; 57; 57; 57; 57; 54; 50; 49; 48; 54; 56; 49; 50; 55; 69; 45; 48; 53].
Proof.
  rewrite fmt_float_single_exp_form.
  - unfold fmt_rounded. rewrite py_repr_single_exp. reflexivity.
  - reflexivity.
  - rewrite py_repr_single_exp. reflexivity.
Qed.

(* the exact value has 301 digits; the search answers in its first round *)
Lemma shortest_double_big : shortest false 1681218273811815 946 = (1, 300).
Proof.
  unfold shortest, exact_dec. change (946 >=? 0) with true. cbv iota.
  set (N := Z.shiftl _ _).
  erewrite (top17_inexact N 0 281 10000000000000000525).
  - vm_compute. reflexivity.
  - reflexivity.
  - vm_compute. reflexivity.
  - vm_compute. reflexivity.
  - vm_compute. split; reflexivity.
Qed.

(* D23: the DOUBLE exponent marker is D *)
Lemma fmt_double_big : fmt_float false w_double_big = [32; 49; 68; 43; 51; 48; 48].
Proof.
  unfold fmt_float, w_double_big, py_repr, repr_digits. cbv zeta.
  rewrite shortest_double_big. vm_compute. reflexivity.
Qed.

Lemma fmt_double_pow2 :
  fmt_float false w_double_pow2 =
  [32; 54; 46; 49; 56; 57; 55; 48; 48; 49; 57; 54; 52; 50; 54; 57; 48; 50; 68; 43; 50; 54].
Proof. vm_compute. reflexivity. Qed.

(* non-vacuity: values for which everything the property asks holds *)
Lemma double_example_ok :
  let x := FFin false 3602879701896397 (-55) in   (* 0.1 *)
  fmt_float false x = [32; 48; 46; 49] /\
  float_text_ok false x (fmt_float false x) = true /\
  read_num TDouble (fmt_float false x) = RdCell (CD x) /\
  input_num TDouble (fmt_float false x) = RdCell (CD x) /\
  val_text (fmt_float false x) = VOk x /\
  fmt_float false (fneg x) = [45; 48; 46; 49].
Proof.
  intro x. assert (E : fmt_float false x = [32; 48; 46; 49]) by (vm_compute; reflexivity).
  rewrite E. vm_compute. repeat split; reflexivity.
Qed.

Lemma single_example_ok :
  let x := FFin false 10113579 (-13) in   (* the SINGLE nearest to 1234.5678 *)
  fmt_float true x = [32; 49; 50; 51; 52; 46; 53; 54; 56] /\
  float_text_ok true x (fmt_float true x) = true /\
  (match read_num TSingle (fmt_float true x) with
   | RdCell (CS y) => reads_back_close x y false 1234568 (-3)
   | _ => false end) = true.
Proof.
  intro x.
  assert (E : fmt_float true x = [32; 49; 50; 51; 52; 46; 53; 54; 56]) by (vm_compute; reflexivity).
  rewrite E. vm_compute. repeat split; reflexivity.
Qed.

Lemma int_example_ok :
  fmt_int (-32768) = [45; 51; 50; 55; 54; 56] /\ fmt_int 7 = [32; 55] /\
  val_text (fmt_int (-32768)) = VOk (FFin true 1 15) /\
  val_text (fmt_int 2147483648) = VSyntaxError 7.
Proof. vm_compute. repeat split; reflexivity. Qed.

(* the model after fixes/C16-D22neg.diff *)

(* format_number with  before_decimal = sn.lstrip('-').index('.')  : the
   digit count is taken on the text of |x| *)
Definition single_rounded_fixed (x : fl) : fl :=
  match index_of ch_dot (py_repr (fabs x)) 0 with
  | Some bd => if mem_ch ch_e (py_repr x) then x else py_round_nd x (7 - bd)
  | None => x
  end.

Definition fmt_float_D22fix (single : bool) (x0 : fl) : str :=
  let x := if single then c_float x0 else x0 in
  let x1 := if single then single_rounded_fixed x else x in
  let s := strip_dot0 (py_repr x1) in
  let s := map (fun c => if c =? ch_e then (if single then ch_E else ch_D) else c) s in
  if fl_ge0 x1 then ch_space :: s else s.

Lemma py_round_nd_fneg n m e nd :
  py_round_nd (FFin (negb n) m e) nd = fneg (py_round_nd (FFin n m e) nd).
Proof.
  unfold py_round_nd. destruct (m <=? 0); [reflexivity|].
  destruct (exact_dec m e) as [N q]. cbv zeta.
  destruct (q + nd >=? 0); [reflexivity|]. apply dec_to_fl_negb.
Qed.

Lemma c_float_fneg n m e : c_float (FFin (negb n) m e) = fneg (c_float (FFin n m e)).
Proof. unfold c_float. destruct (m <=? 0); [reflexivity | apply round_gen_negb]. Qed.

Lemma single_rounded_fixed_fneg m e :
  single_rounded_fixed (FFin true m e) = fneg (single_rounded_fixed (FFin false m e)).
Proof.
  unfold single_rounded_fixed. cbn [fabs]. rewrite py_repr_neg, mem_ch_cons by reflexivity.
  destruct (index_of ch_dot (py_repr (FFin false m e)) 0) as [bd|]; [|reflexivity].
  destruct (mem_ch ch_e (py_repr (FFin false m e))); [reflexivity|].
  apply (py_round_nd_fneg false).
Qed.

(* with the fix, SINGLE values and their negations show the same digits
   (whenever the 7-digit rounding does not collapse the value to zero) *)
Lemma negation_same_digits_single_fixed m e :
  0 < m -> round32 false m e false = FFin false m e ->
  (exists m1 e1, single_rounded_fixed (FFin false m e) = FFin false m1 e1 /\ 0 < m1) ->
  exists digits,
    fmt_float_D22fix true (FFin false m e) = ch_space :: digits /\
    fmt_float_D22fix true (FFin true m e) = ch_minus :: digits.
Proof.
  intros Hm Hs (m1 & e1 & Hr & Hm1).
  assert (Hc : c_float (FFin false m e) = FFin false m e).
  { unfold c_float. replace (m <=? 0) with false by lia. exact Hs. }
  unfold fmt_float_D22fix. cbv zeta.
  rewrite (c_float_fneg false m e : c_float (FFin true m e) = _), Hc. cbn [fneg negb].
  rewrite single_rounded_fixed_fneg, Hr. apply (fmt_rounded_neg true m1 e1 Hm1).
Qed.

(* the D22 witness under the fixed model *)
Lemma negation_fixed_example :
  fmt_float_D22fix true (FFin false 15432099 3) = [32; 49; 50; 51; 52; 53; 54; 56; 48; 48] /\
  fmt_float_D22fix true (FFin true 15432099 3) = [45; 49; 50; 51; 52; 53; 54; 56; 48; 48].
Proof. vm_compute. split; reflexivity. Qed.
