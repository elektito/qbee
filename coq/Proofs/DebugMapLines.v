(* convert_index_to_line_col: the recorded line of a source offset, and the
   column convention (property C11). *)
From Coq Require Import ZArith List Bool Lia.
From QV Require Import DebugMap.
Import ListNotations.
Open Scope Z_scope.

Fixpoint count_nl (l : list Z) : Z :=
  match l with
  | [] => 0
  | c :: r => (if c =? 10 then 1 else 0) + count_nl r
  end.

Lemma count_nl_nonneg l : 0 <= count_nl l.
Proof. induction l as [|c l IH]; simpl; [lia|]. destruct (c =? 10); lia. Qed.

Lemma index_to_line_col_nat text off :
  0 <= off -> index_to_line_col text off = idx2lc text (Z.to_nat off) 1 0.
Proof.
  intros H. unfold index_to_line_col. destruct (Z.ltb_spec off 0); [lia | reflexivity].
Qed.

Lemma idx2lc_none text : forall k line col,
  (length text <= k)%nat -> idx2lc text k line col = None.
Proof.
  induction text as [|c r IH]; intros k line col H; simpl; [reflexivity|].
  destruct k as [|k]; [simpl in H; lia|]. simpl in H.
  destruct (c =? 10); apply IH; lia.
Qed.

Lemma idx2lc_some text : forall k line col,
  (k < length text)%nat ->
  exists c, idx2lc text k line col = Some (line + count_nl (firstn k text), c) /\
            (count_nl (firstn k text) = 0 -> c = col + Z.of_nat k).
Proof.
  induction text as [|ch r IH]; intros k line col H; simpl in H; [lia|].
  destruct k as [|k]; simpl.
  - exists col. rewrite !Z.add_0_r. auto.
  - pose proof (count_nl_nonneg (firstn k r)). destruct (ch =? 10).
    + destruct (IH k (line + 1) 1) as (c & E & _); [lia|]. exists c.
      rewrite E, Z.add_assoc. split; [reflexivity | lia].
    + destruct (IH k line (col + 1)) as (c & E & Hc); [lia|]. exists c.
      rewrite E. split; [reflexivity | lia].
Qed.

Lemma idx2lc_skip a : forall r k line col,
  exists col', idx2lc (a ++ r) (length a + k) line col = idx2lc r k (line + count_nl a) col'.
Proof.
  induction a as [|ch a IH]; intros r k line col; simpl.
  - exists col. rewrite Z.add_0_r. reflexivity.
  - destruct (ch =? 10).
    + destruct (IH r k (line + 1) 1) as (c' & E). exists c'. rewrite E, Z.add_assoc. reflexivity.
    + destruct (IH r k line (col + 1)) as (c' & E). exists c'. exact E.
Qed.

Lemma idx2lc_col_nextline a b j line col :
  (j < length b)%nat -> count_nl (firstn j b) = 0 ->
  idx2lc (a ++ 10 :: b) (length a + S j) line col = Some (line + count_nl a + 1, 1 + Z.of_nat j).
Proof.
  intros H N. destruct (idx2lc_skip a (10 :: b) (S j) line col) as (c' & ->). simpl.
  destruct (idx2lc_some b j (line + count_nl a + 1) 1 H) as (c & -> & Hc).
  rewrite N, (Hc N), Z.add_0_r. reflexivity.
Qed.
