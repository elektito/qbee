(* C20.  A run does not depend on its fuel once it stops by itself.  The
   compiler reads its sets through membership alone, and what it keeps in
   dicts and lists is described by first occurrence ([first_occ]). *)
From Coq Require Import ZArith List Bool Lia Permutation.
From QV Require Import Sx Strs Machine Cpu Determinism.
Import ListNotations.
Open Scope Z_scope.

Lemma run_fuel_mono m : forall f s t s' k n,
  run m f s t = (s', k, n) -> k <> StFuel ->
  forall f', (f <= f')%nat -> run m f' s t = (s', k, n).
Proof.
  induction f as [|f IH]; intros s t s' k n H Hk f' Hle.
  - simpl in H. inversion H; subst. congruence.
  - destruct f' as [|f']; [lia|].
    simpl in *. destruct (halted s || (pc s >=? code_len m)); [exact H|].
    destruct (tick m s) as [s1 | c s1 | s1]; try exact H.
    apply IH; [exact H | exact Hk | lia].
Qed.

Lemma run_deterministic_gen m s t f1 f2 s1 k1 n1 s2 k2 n2 :
  run m f1 s t = (s1, k1, n1) -> run m f2 s t = (s2, k2, n2) ->
  k1 <> StFuel -> k2 <> StFuel ->
  s1 = s2 /\ k1 = k2 /\ n1 = n2.
Proof.
  intros H1 H2 Hk1 Hk2.
  (* both are the run with the larger fuel *)
  apply (run_fuel_mono m) with (f' := Nat.max f1 f2) in H1; [|exact Hk1 | apply Nat.le_max_l].
  apply (run_fuel_mono m) with (f' := Nat.max f1 f2) in H2; [|exact Hk2 | apply Nat.le_max_r].
  rewrite H1 in H2. now inversion H2.
Qed.

Lemma run_deterministic m sc f1 f2 s1 n1 s2 n2 :
  run m f1 (init_state m sc) 0 = (s1, StHalt, n1) ->
  run m f2 (init_state m sc) 0 = (s2, StHalt, n2) ->
  s1 = s2 /\ events s1 = events s2 /\ n1 = n2.
Proof.
  intros H1 H2.
  destruct (run_deterministic_gen m _ _ _ _ _ _ _ _ _ _ H1 H2) as (E & _ & N); try discriminate.
  subst. auto.
Qed.

Lemma run_split m : forall a b s t, run m (a + b) s t = cont m b (run m a s t).
Proof.
  induction a as [|a IH]; intros b s t.
  - reflexivity.
  - simpl. destruct (halted s || (pc s >=? code_len m)); [reflexivity|].
    destruct (tick m s) as [s1 | c s1 | s1]; try reflexivity.
    apply IH.
Qed.

Lemma sched_runs m1 m2 : forall order a b s1 s2,
  sched m1 m2 order (run m1 a s1 0) (run m2 b s2 0) =
  (run m1 (a + count_b true order) s1 0, run m2 (b + count_b false order) s2 0).
Proof.
  induction order as [|x o IH]; intros a b s1 s2.
  - unfold count_b; simpl. now rewrite !Nat.add_0_r.
  - destruct x; cbn [sched]; rewrite <- run_split, IH; unfold count_b;
      cbn [filter Bool.eqb length]; now rewrite <- Nat.add_assoc.
Qed.

Section DictFacts.
  Context {K V : Type}.
  Variable keqb : K -> K -> bool.
  Hypothesis keqb_spec : forall a b, keqb a b = true <-> a = b.

  Lemma keqb_refl a : keqb a a = true.
  Proof. now apply keqb_spec. Qed.

  Lemma keqb_trans_l a b c : keqb a b = true -> keqb a c = keqb b c.
  Proof. intros H. apply keqb_spec in H. now subst. Qed.

  Lemma mem_In k l : mem keqb k l = true <-> In k l.
  Proof.
    unfold mem. rewrite existsb_exists. split.
    - intros (x & Hx & E). apply keqb_spec in E. now subst.
    - intros H. exists k. split; [exact H | apply keqb_refl].
  Qed.

  Lemma mem_ext k l1 l2 : (forall x, In x l1 <-> In x l2) -> mem keqb k l1 = mem keqb k l2.
  Proof.
    intros H. apply eq_true_iff_eq. rewrite !mem_In. apply H.
  Qed.

  Lemma mem_perm k l1 l2 : Permutation l1 l2 -> mem keqb k l1 = mem keqb k l2.
  Proof.
    intros P. apply mem_ext. intros x. split; apply Permutation_in; [exact P | now apply Permutation_sym].
  Qed.

  Lemma dict_get_set (d : list (K * V)) k' v k :
    dict_get keqb (dict_set keqb d k' v) k = if keqb k k' then Some v else dict_get keqb d k.
  Proof.
    induction d as [|[k0 v0] r IH]; simpl; [reflexivity|].
    destruct (keqb k' k0) eqn:E0; simpl.
    - apply keqb_spec in E0. subst k0. destruct (keqb k k'); reflexivity.
    - rewrite IH. destruct (keqb k k0) eqn:E1, (keqb k k') eqn:E2; try reflexivity.
      (* k is k0 and k', which differ *)
      apply keqb_spec in E1, E2. subst. now rewrite keqb_refl in E0.
  Qed.

  Lemma dict_get_mem (d : list (K * V)) k :
    mem keqb k (dict_keys d) = match dict_get keqb d k with Some _ => true | None => false end.
  Proof.
    induction d as [|[k0 v0] r IH]; simpl; [reflexivity|].
    destruct (keqb k k0); simpl; [reflexivity | exact IH].
  Qed.

  Lemma dict_keys_set (d : list (K * V)) k v :
    dict_keys (dict_set keqb d k v) =
    if mem keqb k (dict_keys d) then dict_keys d else dict_keys d ++ [k].
  Proof.
    induction d as [|[k0 v0] r IH]; simpl; [reflexivity|].
    destruct (keqb k k0) eqn:E; simpl; [reflexivity|].
    unfold dict_keys in *. rewrite IH. unfold mem.
    destruct (existsb (keqb k) (map fst r)); reflexivity.
  Qed.
End DictFacts.

Lemma okey_eqb_spec a b : okey_eqb a b = true <-> a = b.
Proof.
  destruct a as [x|], b as [y|]; simpl; rewrite ?str_eqb_eq; split; congruence.
Qed.

Lemma deftype_lookup : forall letters tab ty k,
  letter_type (apply_deftype tab letters ty) k =
  if mem Z.eqb k (map lower letters) then Some ty else letter_type tab k.
Proof.
  unfold letter_type, apply_deftype.
  induction letters as [|l r IH]; intros tab ty k; simpl.
  - reflexivity.
  - rewrite IH, (dict_get_set Z.eqb Z.eqb_eq).
    destruct (mem Z.eqb k (map lower r)), (k =? lower l); reflexivity.
Qed.

Lemma deftype_ext letters letters' t1 t2 ty :
  Permutation letters letters' ->
  (forall k, letter_type t1 k = letter_type t2 k) ->
  forall k, letter_type (apply_deftype t1 letters ty) k =
            letter_type (apply_deftype t2 letters' ty) k.
Proof.
  intros P E k.
  now rewrite !deftype_lookup, E, (mem_perm Z.eqb Z.eqb_eq k _ _ (Permutation_map lower P)).
Qed.

Lemma deftype_order_irrelevant letters letters' tab ty :
  Permutation letters letters' ->
  forall k, letter_type (apply_deftype tab letters ty) k =
            letter_type (apply_deftype tab letters' ty) k.
Proof. intros P k. now apply deftype_ext. Qed.

(* every statement's letter set enumerated in an arbitrary order *)
Inductive stmts_perm : list (list Z * Z) -> list (list Z * Z) -> Prop :=
| sp_nil : stmts_perm [] []
| sp_cons l l' ty r r' : Permutation l l' -> stmts_perm r r' -> stmts_perm ((l, ty) :: r) ((l', ty) :: r').

Lemma deftypes_order_irrelevant : forall s s', stmts_perm s s' ->
  forall t1 t2, (forall k, letter_type t1 k = letter_type t2 k) ->
  forall k, letter_type (apply_deftypes t1 s) k = letter_type (apply_deftypes t2 s') k.
Proof.
  induction 1 as [|l l' ty r r' P _ IH]; intros t1 t2 E k; simpl.
  - apply E.
  - apply IH. intros k'. now apply deftype_ext.
Qed.

Definition ins_ok (ins : str -> list str -> list str) : Prop :=
  forall x l y, In y (ins x l) <-> y = x \/ In y l.

Lemma ins_front_ok : ins_ok ins_front.
Proof. intros x l y. simpl. split; intros [H|H]; auto. Qed.

Lemma ins_back_ok : ins_ok ins_back.
Proof.
  intros x l y. unfold ins_back. rewrite in_app_iff. simpl. split.
  - intros [H|[H|[]]]; auto.
  - intros [H|H]; auto.
Qed.

Definition same_set (a b : list str) : Prop := forall x, In x a <-> In x b.

Lemma declare_same i1 i2 : ins_ok i1 -> ins_ok i2 ->
  forall decls s1 s2 i, same_set s1 s2 ->
  match declare i1 decls s1 i, declare i2 decls s2 i with
  | inl r1, inl r2 => same_set r1 r2
  | inr a, inr b => a = b
  | _, _ => False
  end.
Proof.
  intros O1 O2. induction decls as [|d r IH]; intros s1 s2 i E; simpl.
  - exact E.
  - rewrite (mem_ext str_eqb str_eqb_eq d s1 s2 E).
    destruct (mem str_eqb d s2); [reflexivity|].
    apply IH. intros x. rewrite (O1 d s1 x), (O2 d s2 x), (E x). reflexivity.
Qed.

Lemma first_undefined_same uses : forall s1 s2 i, same_set s1 s2 ->
  first_undefined uses s1 i = first_undefined uses s2 i.
Proof.
  induction uses as [|u r IH]; intros s1 s2 i E; simpl; [reflexivity|].
  rewrite (mem_ext str_eqb str_eqb_eq u s1 s2 E).
  destruct (mem str_eqb u s2); [now apply IH | reflexivity].
Qed.

Lemma labels_set_membership_only i1 i2 decls uses :
  ins_ok i1 -> ins_ok i2 -> check_labels i1 decls uses = check_labels i2 decls uses.
Proof.
  intros O1 O2. unfold check_labels.
  pose proof (declare_same i1 i2 O1 O2 decls [] [] 0%nat (fun x => iff_refl _)) as H.
  destruct (declare i1 decls [] 0) as [r1|a], (declare i2 decls [] 0) as [r2|b]; try contradiction.
  - now rewrite (first_undefined_same uses r1 r2 0%nat H).
  - now subst.
Qed.

Section DataFacts.
  Context {K I : Type}.
  Variable keqb : K -> K -> bool.
  Hypothesis keqb_spec : forall a b, keqb a b = true <-> a = b.

  Let ext := fun (d : list (K * list I)) (st : K * list I) => dict_extend keqb d (fst st) (snd st).

  Lemma group_keys_gen : forall stmts (d : list (K * list I)),
    dict_keys (fold_left ext stmts d) = dict_keys d ++ first_occ keqb (dict_keys d) (map fst stmts).
  Proof.
    induction stmts as [|[k it] r IH]; intros d; simpl.
    - now rewrite app_nil_r.
    - rewrite IH. unfold ext, dict_extend. simpl.
      rewrite !(dict_keys_set keqb).
      destruct (mem keqb k (dict_keys d)); [reflexivity|].
      now rewrite <- app_assoc.
  Qed.

  Lemma group_items_gen : forall stmts (d : list (K * list I)) k,
    dict_get keqb (fold_left ext stmts d) k =
    match dict_get keqb d k with
    | Some old => Some (old ++ items_of keqb k stmts)
    | None => if mem keqb k (map fst stmts) then Some (items_of keqb k stmts) else None
    end.
  Proof.
    induction stmts as [|[k' it] r IH]; intros d k; simpl.
    - destruct (dict_get keqb d k); [now rewrite app_nil_r | reflexivity].
    - rewrite IH. unfold ext, dict_extend. simpl.
      rewrite (dict_get_set keqb keqb_spec).
      destruct (keqb k k') eqn:E.
      + apply keqb_spec in E. subst k'.
        destruct (dict_get keqb d k); simpl; now rewrite <- ?app_assoc.
      + simpl. reflexivity.
  Qed.

  (* no key enters twice, so list(keys).index(label) is the position of the part *)
  Lemma first_occ_nodup : forall ks seen, NoDup seen -> NoDup (seen ++ first_occ keqb seen ks).
  Proof.
    induction ks as [|x r IH]; intros seen N; simpl; [now rewrite app_nil_r|].
    destruct (mem keqb x seen) eqn:E; [apply IH, N|].
    specialize (IH (seen ++ [x])). rewrite <- app_assoc in IH. apply IH.
    apply (Permutation_NoDup (Permutation_cons_append seen x)).
    constructor; [|exact N]. rewrite <- (mem_In keqb keqb_spec), E. discriminate.
  Qed.
End DataFacts.

Lemma literal_table_gen : forall occ tab,
  fold_left add_literal occ tab = tab ++ first_occ str_eqb tab occ.
Proof.
  induction occ as [|v r IH]; intros tab; simpl.
  - now rewrite app_nil_r.
  - rewrite IH. unfold add_literal.
    destruct (mem str_eqb v tab); [reflexivity|]. now rewrite <- app_assoc.
Qed.
