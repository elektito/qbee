(* Python list indexing as the machine model has it (Machine.nthZ, setZ, set_nth),
   at non-negative indices, where it is nth_error and position-wise update. *)
From Coq Require Import ZArith List Bool Lia ZifyBool.
From QV Require Import Machine.
Import ListNotations.
Open Scope Z_scope.

Lemma nthZ_nat {A} (l : list A) i : 0 <= i -> nthZ l i = nth_error l (Z.to_nat i).
Proof.
  intro H. unfold nthZ. assert (E : (i <? 0) = false) by lia. rewrite E, E. simpl.
  destruct (Z.geb_spec i (Z.of_nat (length l))); [|reflexivity].
  symmetry. apply nth_error_None. lia.
Qed.

Lemma nth_error_Z_lt {A} (l : list A) i x :
  0 <= i -> nth_error l (Z.to_nat i) = Some x -> 0 <= i < Z.of_nat (length l).
Proof.
  intros Hi H. assert (Z.to_nat i < length l)%nat by (apply nth_error_Some; congruence). lia.
Qed.

Lemma nthZ_some_bound {A} (l : list A) i a : 0 <= i -> nthZ l i = Some a -> i < Z.of_nat (length l).
Proof. intros H E. rewrite nthZ_nat in E by exact H. apply (nth_error_Z_lt l i a H E). Qed.

Lemma nthZ_in_range {A} (l : list A) i :
  0 <= i < Z.of_nat (length l) -> exists x, nthZ l i = Some x.
Proof.
  intros [H1 H2]. rewrite nthZ_nat by exact H1.
  destruct (nth_error l (Z.to_nat i)) eqn:E; [eauto|].
  apply nth_error_None in E. lia.
Qed.

Lemma setZ_nat {A} (l : list A) i a :
  0 <= i < Z.of_nat (length l) -> setZ l i a = Some (set_nth l (Z.to_nat i) a).
Proof.
  intros [H1 H2]. unfold setZ. assert (E : (i <? 0) = false) by lia. rewrite E, E. simpl.
  destruct (Z.geb_spec i (Z.of_nat (length l))); [lia | reflexivity].
Qed.

Lemma set_nth_length {A} (l : list A) n a : length (set_nth l n a) = length l.
Proof. revert n; induction l; intros [|n]; simpl; auto. Qed.

Lemma nth_error_set_nth {A} (l : list A) n k a :
  (n < length l)%nat ->
  nth_error (set_nth l n a) k = if (k =? n)%nat then Some a else nth_error l k.
Proof.
  revert n k; induction l; intros [|n] [|k] H; simpl in *; try lia; auto. apply IHl. lia.
Qed.

Lemma nth_error_set_nth_eq {A} (l : list A) n a :
  (n < length l)%nat -> nth_error (set_nth l n a) n = Some a.
Proof. intro H. now rewrite nth_error_set_nth, Nat.eqb_refl. Qed.

Lemma nth_error_set_nth_neq {A} (l : list A) n m a :
  n <> m -> nth_error (set_nth l n a) m = nth_error l m.
Proof.
  revert n m; induction l as [|x l IH]; intros [|n] [|m]; simpl; intro H; auto; congruence.
Qed.

Lemma nthZ_set_nth {A} (l : list A) i k a :
  0 <= i < Z.of_nat (length l) -> 0 <= k ->
  nthZ (set_nth l (Z.to_nat i) a) k = if k =? i then Some a else nthZ l k.
Proof.
  intros Hi Hk. rewrite !nthZ_nat, nth_error_set_nth by lia.
  destruct (Z.eqb_spec k i) as [->|Hne]; [now rewrite Nat.eqb_refl|].
  destruct (Nat.eqb_spec (Z.to_nat k) (Z.to_nat i)); [lia | reflexivity].
Qed.

Lemma set_nth_same {A} (l : list A) n a : nth_error l n = Some a -> set_nth l n a = l.
Proof.
  revert n; induction l as [|x l IH]; intros [|n] H; simpl in *; try discriminate.
  - inversion H; reflexivity.
  - f_equal. now apply IH.
Qed.

(* the two facts that hold at negative (from the end) indices as well *)
Lemma nthZ_setZ_same {A} (l : list A) i a : nthZ l i = Some a -> setZ l i a = Some l.
Proof.
  unfold nthZ, setZ. destruct ((_ <? 0) || (_ >=? _)); [discriminate|].
  intro H. f_equal. now apply set_nth_same.
Qed.

Lemma setZ_then_nthZ {A} (l l' : list A) i b : setZ l i b = Some l' -> nthZ l' i = Some b.
Proof.
  unfold nthZ, setZ. destruct ((_ <? 0) || (_ >=? _)) eqn:E; [discriminate|].
  intros [= <-]. rewrite set_nth_length, E. apply nth_error_set_nth_eq. lia.
Qed.

Lemma set_nth_app_last {A} (h : list A) x y : set_nth (h ++ [x]) (length h) y = h ++ [y].
Proof. induction h; simpl; [reflexivity | now rewrite IHh]. Qed.

Lemma nth_error_app_last {A} (h : list A) x : nth_error (h ++ [x]) (length h) = Some x.
Proof. induction h; simpl; auto. Qed.
