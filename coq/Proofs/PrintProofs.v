(* Lemmas behind Props/C17.v: the layout of one PRINT statement, and the
   argument protocol between gen_print_stmt and _exec_print. *)
From Coq Require Import ZArith List Bool Lia.
From QV Require Import Sx Strs Cell Print.
Import ListNotations.
Open Scope Z_scope.

Lemma body_app a b : body (a ++ b) = fold_left put_item b (body a).
Proof. unfold body. apply fold_left_app. Qed.

Lemma body_snoc items it : body (items ++ [it]) = put_item (body items) it.
Proof. rewrite body_app. reflexivity. Qed.

Lemma num_then_blank items t : body (items ++ [PNum t]) = body items ++ t ++ [ch_space].
Proof. apply body_snoc. Qed.

Lemma str_verbatim items s : body (items ++ [PStr s]) = body items ++ s.
Proof. apply body_snoc. Qed.

Lemma semi_nothing items : body (items ++ [PSemi]) = body items.
Proof. apply body_snoc. Qed.

Lemma pad_to_zone_spec buf :
  exists n : nat,
    pad_to_zone buf = buf ++ spaces n /\
    (1 <= n <= 14)%nat /\
    (Z.of_nat (length (pad_to_zone buf))) mod 14 = 0 /\
    Z.of_nat (length buf) < Z.of_nat (length (pad_to_zone buf)) <= Z.of_nat (length buf) + 14.
Proof.
  unfold pad_to_zone, zone. set (L := Z.of_nat (length buf)).
  assert (Hm : 0 <= L mod 14 < 14) by (apply Z.mod_pos_bound; lia).
  exists (Z.to_nat (14 - L mod 14)). split; [reflexivity|].
  rewrite app_length, spaces_length, Nat2Z.inj_add, Z2Nat.id by lia. fold L.
  repeat split; try lia.
  pose proof (Z.div_mod L 14 ltac:(lia)).
  replace (L + (14 - L mod 14)) with ((L / 14 + 1) * 14) by lia. apply Z.mod_mul; lia.
Qed.

Lemma comma_to_zone items :
  exists n : nat,
    body (items ++ [PComma]) = body items ++ spaces n /\
    (1 <= n <= 14)%nat /\
    (Z.of_nat (length (body (items ++ [PComma])))) mod 14 = 0 /\
    Z.of_nat (length (body items)) < Z.of_nat (length (body (items ++ [PComma])))
      <= Z.of_nat (length (body items)) + 14.
Proof. rewrite body_snoc. cbn [put_item]. apply pad_to_zone_spec. Qed.

Lemma ends_in_sep_snoc items it : ends_in_sep (items ++ [it]) = is_sep it.
Proof. unfold ends_in_sep. rewrite rev_unit. reflexivity. Qed.

Lemma newline_rule items :
  (ends_in_sep items = false -> print_text items = body items ++ crlf) /\
  (ends_in_sep items = true -> print_text items = body items).
Proof. unfold print_text. now destruct (ends_in_sep items). Qed.

Lemma encode_arg_len a : (1 <= length (encode_arg a) <= 2)%nat.
Proof. destruct a; simpl; lia. Qed.

Lemma decode_args_encode args :
  forall fuel fmt acc,
    (length (flat_map encode_arg args) <= fuel)%nat ->
    decode_args fuel (flat_map encode_arg args) fmt acc = POk fmt (rev acc ++ args).
Proof.
  induction args as [|a args IH]; intros fuel fmt acc Hf.
  - simpl. rewrite app_nil_r. destruct fuel; reflexivity.
  - cbn [flat_map] in *. rewrite app_length in Hf.
    (* a value, a semicolon, a comma: one tag, decoded alike *)
    destruct a as [c| |]; cbn [encode_arg app length] in *;
      (destruct fuel as [|fuel]; [lia|]); cbn [decode_args val_eq_int]; cbn;
      rewrite IH by lia; cbn [rev]; now rewrite <- app_assoc.
Qed.

Lemma decode_fmt_step fuel f l acc :
  decode_args (S fuel) (CI 3 :: f :: l) None acc = decode_args fuel l (Some f) acc.
Proof. reflexivity. Qed.

Definition encoded_args (fmt : option cell) (args : list parg) : list cell :=
  (match fmt with Some f => [CI 3; f] | None => [] end) ++ flat_map encode_arg args.

Lemma encode_print_shape fmt args :
  encode_print fmt args =
  encoded_args fmt args ++ [CI (Z.of_nat (length (encoded_args fmt args)))].
Proof. reflexivity. Qed.

Lemma print_protocol_roundtrip fmt args :
  decode_print (encoded_args fmt args) = POk fmt args.
Proof.
  unfold decode_print, encoded_args. destruct fmt as [f|]; cbn [app length].
  - rewrite decode_fmt_step. now rewrite decode_args_encode by lia.
  - now rewrite decode_args_encode by lia.
Qed.

(* the text produced for a plain PRINT is print_text of the items, whatever
   the item values are (also values that look like protocol tags) *)
Lemma exec_print_plain args items :
  map_opt item_of_arg args = Some items ->
  exec_print (encoded_args None args) = OutText [print_text items].
Proof.
  intro H. unfold exec_print. rewrite print_protocol_roundtrip. cbn [emit]. now rewrite H.
Qed.
