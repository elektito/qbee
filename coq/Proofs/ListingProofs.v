(* The disassembly of assembled items shows the listing after resolution:
   dis_items lits (assemble lits l) = expected_dis lits l. *)
From Coq Require Import String.
From Coq Require Import ZArith List Bool Lia.
From QV Require Import Sx Strs Fl Dec Machine Cpu Instrs Codec InstrCheck Listing.
From QV Require Import CodecProofs.
Import ListNotations.
Open Scope Z_scope.

(* one equation between two maps, so that it is checked in one pass over the
   candidates *)
Lemma candidates_operands a b c i :
  In i (candidates a b c) ->
  instr_operands i = map OvZ (firstn (length (instr_operands i)) [a; b; c]).
Proof. revert i. apply ext_in_map. reflexivity. Qed.

Lemma firstn_vals (vals : list Z) :
  (length vals <= 3)%nat ->
  firstn (length vals) [nth 0 vals 0; nth 1 vals 0; nth 2 vals 0] = vals.
Proof.
  destruct vals as [|a [|b [|c [|d r]]]]; simpl; intros H; try reflexivity. lia.
Qed.

Lemma mk_plain_inv op vals i :
  mk_plain op vals = Some i -> instr_name i = op /\ instr_operands i = map OvZ vals.
Proof.
  unfold mk_plain. destruct (find _ _) as [j|] eqn:F; [|discriminate].
  destruct (Nat.eqb _ _) eqn:N; [|discriminate]. intros [= <-].
  apply find_some in F as (I & E). apply str_eqb_eq in E. apply Nat.eqb_eq in N.
  apply candidates_operands in I as O. split; [exact E|].
  rewrite O, N, firstn_vals; [reflexivity|].
  rewrite <- N, O, map_length, firstn_length. simpl. lia.
Qed.

Lemma of_plain_inv op vals w : of_plain op vals = AOk w -> exists i, mk_plain op vals = Some i /\ w = WI i.
Proof. unfold of_plain. destruct (mk_plain op vals); [|discriminate]. intros [= <-]. eauto. Qed.

Definition optok (op : str) : Z -> dtok :=
  if is_label_op op || str_eqb op (L "errhand") then THex else TNum.

Definition tok_of_oval (f : Z -> dtok) (o : oval) : dtok :=
  match o with OvZ z => f z | OvF x => TFlt x end.

Lemma dis_entry_cases lits off i :
  (exists idx, i = IPushStr idx) \/
  dis_entry lits off i =
  Some (mkDline off (instr_name i) (map (tok_of_oval (optok (instr_name i))) (instr_operands i)) None).
Proof. destruct i; try (right; exact eq_refl). left. eauto. Qed.

Lemma of_plain_entry lits op vals w :
  of_plain op vals = AOk w -> str_eqb op (L "push$") = false ->
  forall off, dis_entry lits off (instr_of_w w) = Some (mkDline off op (map (optok op) vals) None).
Proof.
  intros Hw E off. apply of_plain_inv in Hw as (i & M & ->).
  destruct (mk_plain_inv _ _ _ M) as (N & O).
  destruct (dis_entry_cases lits off i) as [(idx & ->) | D].
  - subst op. discriminate E.
  - simpl. rewrite D, N, O, map_map. reflexivity.
Qed.

Lemma dis_entry_op lits off i d : dis_entry lits off i = Some d -> dl_op d = instr_name i.
Proof.
  destruct (dis_entry_cases lits off i) as [(idx & ->) | D].
  - simpl. destruct (nth_lit _ _); [|discriminate]. intros [= <-]. reflexivity.
  - rewrite D. intros [= <-]. reflexivity.
Qed.

(* an index the disassembler finds a literal for is below the literal count *)
Lemma dis_entry_small lits off w d :
  dis_entry lits off (instr_of_w w) = Some d -> len lits <= 32768 -> pushstr_small w.
Proof.
  intros H B. destruct w as [[] | |]; try exact I. revert H.
  cbn [instr_of_w]. unfold dis_entry, nth_lit, pushstr_small. intros H.
  destruct (u16_of idx <? 0) eqn:E; [discriminate|].
  destruct (nth_error lits _) eqn:NE; [|discriminate].
  assert (Z.to_nat (u16_of idx) < length lits)%nat as R by (apply nth_error_Some; congruence).
  unfold u16_of, len in *. destruct (idx <? 0); lia.
Qed.

Lemma lit_index_spec lits s j :
  lit_index lits s = Some j -> 0 <= j /\ nth_error lits (Z.to_nat j) = Some s.
Proof.
  unfold lit_index. intros H.
  enough (0 <= j /\ nth_error lits (Z.to_nat (j - 0)) = Some s) as G
    by (now rewrite Z.sub_0_r in G).
  (* the search counts from any start i *)
  revert H. generalize 0 as i.
  induction lits as [|x r IH]; intros i H; [discriminate|].
  destruct (str_eqb x s) eqn:E.
  - injection H as <-. apply str_eqb_eq in E as ->. rewrite Z.sub_diag. split; [lia | reflexivity].
  - apply IH in H as (H1 & H2).
    replace (Z.to_nat (j - i)) with (S (Z.to_nat (j - (i + 1)))) by lia. split; [lia | exact H2].
Qed.

Lemma pushstr_entry lits off s j i :
  mk_plain (L "push$") [j] = Some i -> lit_index lits s = Some j ->
  dis_entry lits off i = Some (mkDline off (L "push$") [TNum j] (Some s)).
Proof.
  intros M LI. vm_compute in M. injection M as <-.
  apply lit_index_spec in LI as (R & NE).
  assert (j <? 0 = false) as Z0 by lia.
  unfold dis_entry, nth_lit, dis_args, u16_of. rewrite Z0. cbn iota. rewrite Z0, NE. reflexivity.
Qed.

(* case analysis on what [H] matches on, until it computes; the cases in which
   it is absurd go *)
Ltac break H :=
  repeat (match type of H with
          | context [match ?a with _ => _ end] =>
            first [is_var a; destruct a | let E := fresh "E" in destruct a eqn:E];
            try discriminate H
          end).

(* One walk through asm_one for any label resolver: what the disassembly entry
   of the result shows; when the resolver is a table, spec_args goes the same
   way and computes these tokens. *)
Lemma asm_one_inv lits lab op args w :
  asm_one lits lab op args = AOk w ->
  exists toks c,
    (forall off, dis_entry lits off (instr_of_w w) = Some (mkDline off op toks c)) /\
    forall labels, (forall n, lab n = assoc n labels) ->
      spec_args lits labels op args = Some (toks, c).
Proof.
  intros H. destruct (str_eqb op (L "push$")) eqn:E4.
  { apply str_eqb_eq in E4 as ->. unfold asm_one, spec_args in *. simpl in H |- *. break H.
    apply of_plain_inv in H as (i & M & ->). exists [TNum z], (Some s0).
    split; [intro; now apply pushstr_entry | reflexivity]. }
  (* every other branch but two ends in of_plain; P goes through the tests on
     op with H, which decide its optok *)
  pose proof (fun vals Hw => of_plain_entry lits op vals w Hw E4) as P.
  revert H P. unfold asm_one, spec_args, optok.
  (* the tests of asm_one and spec_args, in their order *)
  destruct (is_label_op op); [|
  destruct (str_eqb op (L "errhand")); [|
  destruct (str_eqb op (L "io")); [|
  destruct (str_eqb op (L "push$")); [discriminate E4|
  destruct (str_eqb op (L "push!")) eqn:E5; [|
  destruct (str_eqb op (L "push#")) eqn:E6; [|
  destruct (str_eqb op (L "push%") || str_eqb op (L "push&")) ]]]]]];
    intros H P.
  4: { break H. injection H as <-. apply str_eqb_eq in E5 as ->. eexists _, _. split; reflexivity. }
  4: { break H. injection H as <-. apply str_eqb_eq in E6 as ->. eexists _, _. split; reflexivity. }
  all: break H; specialize (P _ H); eexists _, _; (split; [exact P|]);
    intros labels X; rewrite <- ?X, ?E; reflexivity.
Qed.

Lemma asm_one_size lits lab op args w bs :
  asm_one lits lab op args = AOk w -> encode_w w = Some bs -> table_size op = Some (len bs).
Proof.
  intros H E. destruct (asm_one_inv _ _ _ _ _ H) as (toks & c & D & _).
  apply (dis_entry_op _ 0) in D. simpl in D. rewrite D. now apply encode_w_size.
Qed.

Lemma abind_inv {A B} (x : ares A) (f : A -> ares B) b :
  abind x f = AOk b -> exists a, x = AOk a /\ f a = AOk b.
Proof. destruct x; simpl; try discriminate. eauto. Qed.

Lemma label_pass_spec lits : forall l off acc labels e,
  label_pass lits l off acc = AOk (labels, e) -> spec_labels l off acc = Some labels.
Proof.
  induction l as [|it r IH]; intros off acc labels e H.
  - simpl in H. injection H as <- <-. reflexivity.
  - destruct it as [n | | op args]; simpl in H |- *.
    + eauto.
    + eauto.
    + apply abind_inv in H as (w & Hw & H). apply abind_inv in H as (n & Hn & H).
      unfold enc_size in Hn. destruct (encode_w w) as [bs|] eqn:Hb; [|discriminate].
      injection Hn as <-.
      rewrite (asm_one_size _ _ _ _ _ _ Hw Hb). eauto.
Qed.

Lemma dis_from_step f lits off bs i n e :
  decode bs = DOk i n -> dis_entry lits off i = Some e ->
  dis_from (S f) lits off bs =
  match dis_from f lits (off + n) (skipn (Z.to_nat n) bs) with
  | DisOk r => DisOk (e :: r)
  | err => err
  end.
Proof.
  intros D E. destruct bs; [discriminate D|]. cbn [dis_from]. rewrite D, E. reflexivity.
Qed.

Lemma emit_dis lits labels : forall l ws code off fuel,
  emit_pass lits (fun n => assoc n labels) l = AOk ws ->
  encode_code ws = Some code -> len lits <= 32768 -> (length code <= fuel)%nat ->
  exists dl, spec_lines lits labels l off = Some dl /\ dis_from fuel lits off code = DisOk dl.
Proof.
  induction l as [|it r IH]; intros ws code off fuel H E B F.
  - simpl in H. injection H as <-. simpl in E. injection E as <-.
    exists []. split; [reflexivity|]. destruct fuel; reflexivity.
  - destruct it as [n | | op args]; [exact (IH _ _ _ _ H E B F)..|].
    cbn [emit_pass] in H. apply abind_inv in H as (w & Hw & H).
    apply abind_inv in H as (ws' & Hr & [= <-]).
    simpl in E. apply cat2_inv in E as (x & y & Hx & Hy & ->).
    destruct (asm_one_inv _ _ _ _ _ Hw) as (toks & c & DE & SA).
    specialize (DE off). specialize (SA labels (fun _ => eq_refl)).
    pose proof (dis_entry_small _ _ _ _ DE B) as SM.
    pose proof (encode_w_nonempty _ _ Hx) as NE. rewrite app_length in F.
    destruct fuel as [|f]; [clear - F NE; lia|].
    destruct (IH ws' y (off + len x) f Hr Hy B) as (dl & SL & DF); [clear - F NE; lia|].
    exists (mkDline off op toks c :: dl). split.
    + cbn [spec_lines]. rewrite (asm_one_size _ _ _ _ _ _ Hw Hx), SA, SL. reflexivity.
    + rewrite (dis_from_step _ _ _ _ _ _ _ (decode_encode_w _ _ y Hx SM) DE), skipn_len_app, DF.
      reflexivity.
Qed.

Theorem disasm_matches_listing lits l code labels :
  assemble lits l = AOk (code, labels) -> len lits <= 32768 ->
  exists dl, expected_dis lits l = Some dl /\ dis_items lits code = DisOk dl /\
             disasm lits code = DisOk (render_dis dl).
Proof.
  unfold assemble, assemble_w. intros H B.
  apply abind_inv in H as ((ws & labels') & H & H2).
  apply abind_inv in H as ((lt & e) & HL & H).
  apply abind_inv in H as (ws0 & HE & [= -> ->]).
  destruct (encode_code ws) as [bs|] eqn:EC; [|discriminate]. injection H2 as -> ->.
  destruct (emit_dis lits labels l ws code 0 (length code) HE EC B (le_n _)) as (dl & SL & DF).
  exists dl. unfold expected_dis, disasm, dis_items.
  rewrite (label_pass_spec _ _ _ _ _ _ HL), SL, DF. auto.
Qed.
