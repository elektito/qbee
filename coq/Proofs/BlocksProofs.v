(* The block assembler of Models/Blocks.v against the grammar [wfa] of
   Models/BlocksSpec.v: it accepts exactly the flattenings of well-formed
   forests, and returns the forest. *)
From Coq Require Import ZArith List Bool.
From QV Require Import Blocks BlocksSpec.
Import ListNotations.
Open Scope Z_scope.

Lemma bkind_eqb_spec a b : reflect (a = b) (bkind_eqb a b).
Proof. destruct a, b; constructor; congruence. Qed.

Lemma opener_not_ender k b : opener k = Some b -> ender k = None.
Proof. destruct k; simpl; congruence. Qed.

Lemma ender_not_opener k b : ender k = Some b -> opener k = None.
Proof. destruct k; simpl; congruence. Qed.

Section TreeInd.
  Variable P : tree -> Prop.
  Hypothesis Hs : forall s, P (TStmt s).
  Hypothesis Hb : forall k o b e, Forall P b -> P (TBlock k o b e).
  Fixpoint tree_ind' (t : tree) : P t :=
    match t with
    | TStmt s => Hs s
    | TBlock k o b e =>
      Hb k o b e ((fix go (l : list tree) : Forall P l :=
                     match l with
                     | [] => Forall_nil _
                     | x :: r => Forall_cons _ (tree_ind' x) (go r)
                     end) b)
    end.
End TreeInd.

Lemma flatten_forest_app a b : flatten_forest (a ++ b) = flatten_forest a ++ flatten_forest b.
Proof. apply flat_map_app. Qed.

Lemma flatten_forest_cons t ts : flatten_forest (t :: ts) = flatten t ++ flatten_forest ts.
Proof. reflexivity. Qed.

Lemma flatten_nonempty t : flatten t <> [].
Proof. destruct t; simpl; discriminate. Qed.

Lemma flatten_single t s : flatten t = [s] -> t = TStmt s.
Proof.
  destruct t as [s'|k o b e]; simpl; intros H.
  - inversion H. reflexivity.
  - inversion H as [[E1 E2]]. destruct (flat_map flatten b); simpl in E2; discriminate.
Qed.

Lemma forest_balanced ts : Forall wfa ts -> balanced_asm (flatten_forest ts).
Proof. intros H. exists ts. split; [assumption | reflexivity]. Qed.

Lemma if_scan_skip b1 r :
  Forall (fun t => is_else t = false) b1 -> if_scan false (b1 ++ r) = if_scan false r.
Proof.
  induction 1 as [|t b1 Ht _ IH]; [reflexivity|].
  destruct t as [s|]; simpl; [|exact IH].
  unfold is_else in Ht. destruct (sk s); try discriminate; exact IH.
Qed.

Lemma if_scan_after_else b :
  if_scan true b = COk <-> Forall (fun t => is_if_marker t = false) b.
Proof.
  induction b as [|t b IH]; [split; constructor|].
  assert (E : if_scan true (t :: b)
              = if is_if_marker t then CCrash CAssertIf else if_scan true b).
  { destruct t as [s|]; simpl; [destruct (sk s)|]; reflexivity. }
  rewrite E, Forall_cons_iff, <- IH. destruct (is_if_marker t); intuition discriminate.
Qed.

Lemma if_body_cons t b : is_else t = false -> if_body b -> if_body (t :: b).
Proof.
  intros Ht [b' H | b1 s b2 H1 Hs H2].
  - apply ifb_noelse. constructor; assumption.
  - apply (ifb_else (t :: b1)); try assumption. constructor; assumption.
Qed.

Lemma if_scan_spec b : if_scan false b = COk <-> if_body b.
Proof.
  split.
  - induction b as [|t b IH]; intros H; [apply ifb_noelse; constructor|].
    destruct t as [s|]; simpl in H; [|apply if_body_cons; auto].
    destruct (sk s) eqn:E;
      try (apply if_body_cons; [unfold is_else; rewrite E; reflexivity | auto]).
    (* the first ELSE *)
    apply (ifb_else []); [constructor | assumption | apply if_scan_after_else; assumption].
  - intros [b' H | b1 s b2 H1 Hs H2].
    + rewrite <- (app_nil_r b'). rewrite if_scan_skip by assumption. reflexivity.
    + rewrite if_scan_skip by assumption. simpl. rewrite Hs.
      apply if_scan_after_else; assumption.
Qed.

Lemma existsb_eqb_in n l : existsb (Z.eqb n) l = true <-> In n l.
Proof.
  rewrite existsb_exists. split.
  - intros [x [Hx E]]. apply Z.eqb_eq in E. subst. assumption.
  - intros H. exists n. split; [assumption | apply Z.eqb_refl].
Qed.

Lemma type_scan_cons names t b :
  type_scan names (t :: b) =
  match field_name t with
  | Some n => if existsb (Z.eqb n) names then CErr ETypeDup (tline t)
              else type_scan (names ++ [n]) b
  | None => CErr ETypeIllegal (tline t)
  end.
Proof. destruct t as [s|]; simpl; [destruct (sk s)|]; reflexivity. Qed.

Lemma type_scan_spec b : forall names, NoDup names ->
  (type_scan names b = COk <->
   exists ns, map field_name b = map Some ns /\ NoDup (names ++ ns)).
Proof.
  induction b as [|t b IH]; intros names Hn.
  { split; [exists []; rewrite app_nil_r; auto | reflexivity]. }
  rewrite type_scan_cons. simpl. destruct (field_name t) as [n|].
  - destruct (existsb (Z.eqb n) names) eqn:Ex.
    + split; [discriminate|]. intros [[|n' ns] [Hm Hd]]; [discriminate|].
      injection Hm as <- _. apply NoDup_remove_2 in Hd. elim Hd.
      apply in_or_app. left. apply existsb_eqb_in. assumption.
    + rewrite IH.
      * split.
        -- intros [ns [Hm Hd]]. exists (n :: ns). rewrite <- app_assoc in Hd.
           split; [simpl; f_equal|]; assumption.
        -- intros [[|n' ns] [Hm Hd]]; [discriminate|]. injection Hm as <- Hm.
           exists ns. rewrite <- app_assoc. auto.
      * apply (NoDup_Add (Add_app n names [])). rewrite app_nil_r.
        split; [assumption|]. rewrite <- existsb_eqb_in. congruence.
  - split; [discriminate|]. intros [[|n ns] [Hm _]]; discriminate.
Qed.

Lemma create_block_spec k o e b : create_block k o e b = COk <-> body_ok false k o b e.
Proof.
  destruct k; simpl; try tauto.
  - apply if_scan_spec.
  - unfold for_ok. destruct (sk o); try tauto. destruct (sk e); try tauto.
    destruct v0 as [w|]; [|tauto]. destruct (Z.eqb_spec v w); intuition discriminate.
  - unfold do_ok. destruct (sk o); try tauto. destruct c; try tauto.
    destruct (sk e); try tauto. destruct c; intuition discriminate.
  - unfold select_body. destruct b as [|[s|] r]; [tauto| |].
    + split.
      * intros H. right. exists s, r. split; [reflexivity | left].
        destruct (sk s); reflexivity || discriminate H.
      * intros [H | (s' & r' & H & [Hs | [Hf _]])]; try discriminate.
        injection H as <- _. rewrite Hs. reflexivity.
    + split; [discriminate|]. intros [H | (s' & r' & H & _)]; discriminate.
  - rewrite (type_scan_spec b [] (NoDup_nil _)). reflexivity.
Qed.

Fixpoint pre_run (stack : list frame) (cur : list tree) (l : list stmt) : sres :=
  match l with
  | [] => SOk stack cur
  | s :: r =>
    match step stack cur s with
    | SOk stack' cur' => pre_run stack' cur' r
    | x => x
    end
  end.

Lemma run_all l : forall stack cur,
  run stack cur l =
  match pre_run stack cur l with
  | SOk st c => run st c []
  | SErr e ln => RErr e ln
  | SCrash c => RCrash c
  end.
Proof.
  induction l as [|s l IH]; intros stack cur; simpl; [reflexivity|].
  destruct (step stack cur s); try reflexivity. apply IH.
Qed.

Lemma pre_run_app p : forall stack cur q,
  pre_run stack cur (p ++ q) =
  match pre_run stack cur p with
  | SOk st c => pre_run st c q
  | x => x
  end.
Proof.
  induction p as [|s p IH]; intros stack cur q; simpl; [reflexivity|].
  destruct (step stack cur s); try reflexivity. apply IH.
Qed.

Lemma step_plain stack cur s :
  opener (sk s) = None -> ender (sk s) = None ->
  step stack cur s = SOk stack (cur ++ [TStmt s]).
Proof. intros Ho He. unfold step. rewrite Ho, He. reflexivity. Qed.

Definition reassembled (t : tree) : Prop :=
  forall stack cur, pre_run stack cur (flatten t) = SOk stack (cur ++ [t]).

Lemma pre_run_reassembled ts : Forall reassembled ts ->
  forall stack cur, pre_run stack cur (flatten_forest ts) = SOk stack (cur ++ ts).
Proof.
  induction 1 as [|t ts Ht _ IH]; intros stack cur; simpl.
  - rewrite app_nil_r. reflexivity.
  - rewrite pre_run_app, Ht, IH, <- app_assoc. reflexivity.
Qed.

Lemma wfa_reassembled t : wfa t -> reassembled t.
Proof.
  induction t as [s | k o b e IH] using tree_ind'; intros Hw stack cur.
  - inversion Hw; subst. simpl. rewrite step_plain by assumption. reflexivity.
  - inversion Hw as [| ? ? ? ? Ho He Hkids Hbody]; subst.
    assert (Hb : Forall reassembled b).
    { rewrite Forall_forall in *. auto. }
    simpl. unfold step at 1. rewrite Ho.
    rewrite pre_run_app, (pre_run_reassembled b Hb). simpl. unfold step.
    rewrite (ender_not_opener _ _ He), He.
    destruct (bkind_eqb_spec k k); [|congruence].
    apply create_block_spec in Hbody. rewrite Hbody. reflexivity.
Qed.

Lemma pre_run_forest ts : Forall wfa ts ->
  forall stack cur, pre_run stack cur (flatten_forest ts) = SOk stack (cur ++ ts).
Proof.
  intros H. apply pre_run_reassembled. revert H. apply Forall_impl, wfa_reassembled.
Qed.

Lemma assemble_complete_asm ts : Forall wfa ts -> assemble (flatten_forest ts) = ROk ts.
Proof.
  intros Hw. unfold assemble. rewrite run_all, pre_run_forest by assumption. reflexivity.
Qed.

(* the statements taken so far, from the state *)
Fixpoint consumed (stack : list frame) (cur : list tree) : list stmt :=
  match stack with
  | [] => flatten_forest cur
  | (_, o, prev) :: st => consumed st prev ++ o :: flatten_forest cur
  end.

Definition frame_ok (f : frame) : Prop :=
  let '(k, o, prev) := f in opener (sk o) = Some k /\ Forall wfa prev.

Definition inv (stack : list frame) (cur : list tree) : Prop :=
  Forall frame_ok stack /\ Forall wfa cur.

Lemma inv_nil : inv [] [].
Proof. split; constructor. Qed.

Lemma inv_snoc stack cur t : inv stack cur -> wfa t -> inv stack (cur ++ [t]).
Proof. intros [Hs Hc] Ht. split; [assumption|]. apply Forall_app. auto. Qed.

Lemma consumed_app stack a b :
  consumed stack (a ++ b) = consumed stack a ++ flatten_forest b.
Proof.
  destruct stack as [|[[k o] prev] st]; simpl; rewrite flatten_forest_app.
  - reflexivity.
  - rewrite <- app_assoc. reflexivity.
Qed.

Lemma step_sound stack cur s stack' cur' :
  step stack cur s = SOk stack' cur' -> inv stack cur ->
  inv stack' cur' /\ consumed stack' cur' = consumed stack cur ++ [s].
Proof.
  intros H [Hst Hcur]. unfold step in H.
  destruct (opener (sk s)) as [k|] eqn:Ho.
  - inversion H; subst. repeat split; try constructor; simpl; auto.
  - destruct (ender (sk s)) as [ke|] eqn:He.
    + destruct stack as [|[[ko o] prev] st]; [discriminate|].
      destruct (bkind_eqb_spec ko ke); [subst ke|discriminate].
      destruct (create_block ko o s cur) eqn:Ec; try discriminate.
      inversion H; subst. inversion Hst as [|? ? Hf Hst']; subst. destruct Hf as [Hoo Hprev].
      split.
      * apply inv_snoc; [split; assumption|].
        apply wfa_block; try assumption. apply create_block_spec. assumption.
      * rewrite consumed_app. simpl. rewrite app_nil_r, <- !app_assoc. reflexivity.
    + inversion H; subst. split.
      * apply inv_snoc; [split; assumption | apply wfa_stmt; assumption].
      * rewrite consumed_app. reflexivity.
Qed.

Lemma pre_run_sound l : forall stack cur st c,
  pre_run stack cur l = SOk st c -> inv stack cur ->
  inv st c /\ consumed st c = consumed stack cur ++ l.
Proof.
  induction l as [|s l IH]; intros stack cur st c H Hinv; simpl in H.
  - inversion H; subst. split; [assumption|]. rewrite app_nil_r. reflexivity.
  - destruct (step stack cur s) as [stack' cur'| |] eqn:Es; try discriminate.
    destruct (step_sound _ _ _ _ _ Es Hinv) as [Hinv' Hcons].
    destruct (IH _ _ _ _ H Hinv') as [Hi Hc]. split; [assumption|].
    rewrite Hc, Hcons, <- app_assoc. reflexivity.
Qed.

Lemma assemble_sound_asm l ts :
  assemble l = ROk ts -> Forall wfa ts /\ flatten_forest ts = l.
Proof.
  unfold assemble. rewrite run_all. intros H.
  destruct (pre_run [] [] l) as [[|[[k o] prev] st] c| |] eqn:Hp; try discriminate.
  injection H as ->. destruct (pre_run_sound _ _ _ _ _ Hp inv_nil) as [[_ Hw] Hc]. auto.
Qed.
