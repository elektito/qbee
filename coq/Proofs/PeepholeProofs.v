(* Proofs about the peephole model (Models/Peephole.v):
   list level: every result of [optimize] is reached from the input by
     finitely many of the seven rewrites, applied to windows that contain no
     PMark; the sequence of PMarks is unchanged; the loop terminates;
   debug markers: erase_marks commutes with optimize up to rewriting, and
     the offset/label computation of the assembler ignores debug markers;
   machine level: each rewrite is sound for Cpu.exec on every state, under a
     guard where the compile-time evaluator is wrong; the witnesses that show
     the guards necessary are in Props/C02_peep_part.v, only their data here. *)
From Coq Require Import ZArith List Bool Lia ZifyBool Relations.
From QV Require Import Sx Strs Fl Cell Machine Cpu Peephole ExpShortcut ListIndex.
Import ListNotations.
Open Scope Z_scope.

Definition lenZ (l : list pins) : Z := Z.of_nat (length l).

Lemma skipn_nth_cons : forall (l : list pins) n,
  (n < length l)%nat -> skipn n l = nth n l nop :: skipn (S n) l.
Proof.
  induction l as [|a l IH]; intros n H; simpl in H; [lia|].
  destruct n; [reflexivity|]. simpl. apply IH. lia.
Qed.

Lemma nth_len_app : forall (pre : list pins) x r, nth (length pre) (pre ++ x :: r) nop = x.
Proof. intros. apply nth_middle. Qed.

Lemma window1 : forall l i, 0 <= i < Z.of_nat (length l) ->
  exists pre post, l = pre ++ get l i :: post /\ Z.to_nat i = length pre.
Proof.
  intros l i H. destruct (nth_split l nop (n := Z.to_nat i)) as (pre & post & Hl & Hn); [lia|].
  exists pre, post. split; [exact Hl | now symmetry].
Qed.

Lemma window2 : forall l i, 0 < i < lenZ l ->
  exists pre post, l = pre ++ [get l (i - 1); get l i] ++ post /\
    Z.to_nat (i - 1) = length pre /\ Z.to_nat i = S (length pre).
Proof.
  intros l i H. unfold lenZ in H. unfold get.
  replace (Z.to_nat i) with (S (Z.to_nat (i - 1))) by lia.
  set (n := Z.to_nat (i - 1)).
  exists (firstn n l), (skipn (S (S n)) l). rewrite firstn_length_le by lia.
  repeat split. cbn [app]. rewrite <- !skipn_nth_cons by lia. symmetry. apply firstn_skipn.
Qed.

Lemma window3 : forall l i, 1 < i < lenZ l ->
  exists pre post, l = pre ++ [get l (i - 2); get l (i - 1); get l i] ++ post /\
    Z.to_nat (i - 2) = length pre /\ Z.to_nat (i - 1) = S (length pre) /\
    Z.to_nat i = S (S (length pre)).
Proof.
  intros l i H. unfold lenZ in H. unfold get.
  replace (Z.to_nat i) with (S (S (Z.to_nat (i - 2)))) by lia.
  replace (Z.to_nat (i - 1)) with (S (Z.to_nat (i - 2))) by lia.
  set (n := Z.to_nat (i - 2)).
  exists (firstn n l), (skipn (S (S (S n))) l). rewrite firstn_length_le by lia.
  repeat split. cbn [app]. rewrite <- !skipn_nth_cons by lia. symmetry. apply firstn_skipn.
Qed.

Lemma skipn_app_2 : forall (pre l : list pins) n, skipn (length pre + n) (pre ++ l) = skipn n l.
Proof. induction pre; simpl; auto. Qed.

(* an edit behind a prefix is an edit of the rest; on a rest that is written
   out, [del] and [setn] at a numeral then compute *)
Lemma del_app : forall pre l k n,
  Z.to_nat k = (n + length pre)%nat -> del (pre ++ l) k = pre ++ del l (Z.of_nat n).
Proof.
  intros pre l k n H. unfold del.
  rewrite H, Nat2Z.id, Nat.add_comm, firstn_app_2, plus_n_Sm, skipn_app_2. symmetry. apply app_assoc.
Qed.

Lemma setn_app : forall pre l k n x,
  Z.to_nat k = (n + length pre)%nat -> setn (pre ++ l) k x = pre ++ setn l (Z.of_nat n) x.
Proof.
  intros pre l k n x H. unfold setn.
  rewrite H, Nat2Z.id, Nat.add_comm, firstn_app_2, plus_n_Sm, skipn_app_2. symmetry. apply app_assoc.
Qed.

Lemma zs_eqb_eq : forall a b, zs_eqb a b = true -> a = b.
Proof. intros a b. apply (str_eqb_eq a b). Qed.

Lemma is_jump_not_nop : forall p, is_jump p = true -> p <> nop.
Proof. intros p H E. subst. discriminate. Qed.

Lemma jump_not_mark : forall p, is_jump p = true -> is_mark p = false.
Proof. destruct p; try discriminate; reflexivity. Qed.

Lemma not_mark_not_dbg : forall p, is_mark p = false -> is_dbg_mark p = false.
Proof. destruct p; try discriminate; reflexivity. Qed.

Section ListLevel.
Variable convf : Z -> pyval -> fres.
Variable f1 : unop -> Z -> pyval -> fres.
Variable f2 : binop -> Z -> pyval -> pyval -> fres.

(* window -> replacement; no constructor mentions PMark, the after-halt rule
   excludes it explicitly *)
Inductive rw1 : list pins -> list pins -> Prop :=
| rw_push_conv : forall tc v dst v',
    convf dst v = FVal v' -> rw1 [PPush tc v; PConv tc dst] [PPush dst v']
| rw_read_store : forall sc tc args, rw1 [PRead sc tc args; PStore sc args] []
| rw_push_un : forall tc v o v',
    f1 o tc v = FVal v' -> rw1 [PPush tc v; PUn o] [PPush tc v']
| rw_push_bin : forall tc a b o v',
    f2 o tc a b = FVal v' -> rw1 [PPush tc a; PPush tc b; PBin o] [PPush tc v']
| rw_jmp_jmp : forall j1 j2, is_jump j1 = true -> is_jump j2 = true -> rw1 [j1; j2] [j1]
| rw_push_jz_taken : forall v t, py_eq0 v = true -> rw1 [PPush 1 v; PJz t] [PJmp t]
| rw_push_jz_never : forall v t, py_eq0 v = false -> rw1 [PPush 1 v; PJz t] []
| rw_after_halt : forall x, is_mark x = false -> rw1 [PHalt; x] [PHalt].

Definition rewrites (l l' : list pins) : Prop :=
  exists pre w w' post, l = pre ++ w ++ post /\ l' = pre ++ w' ++ post /\ rw1 w w'.

Lemma rw1_no_mark : forall w w', rw1 w w' ->
  forallb (fun p => negb (is_mark p)) w = true /\ forallb (fun p => negb (is_mark p)) w' = true.
Proof.
  intros w w' H. destruct H; simpl; try (split; reflexivity).
  - rewrite (jump_not_mark j1), (jump_not_mark j2) by assumption. split; reflexivity.
  - rewrite H. split; reflexivity.
Qed.

Lemma rw1_shrinks : forall w w', rw1 w w' -> (length w' < length w)%nat.
Proof. intros w w' H. destruct H; simpl; auto. Qed.

(* What one iteration at index [i] does: either nothing is rewritten and the
   index moves on, or a window ending at [i] is rewritten and the index moves
   to the last instruction of the replacement or just behind it.  Both the
   rewriting and the termination of the loop are read off this. *)
Inductive iter (l : list pins) (i : Z) (l' : list pins) (i' : Z) : Prop :=
| iter_skip : l' = l -> i' = i + 1 -> iter l i l' i'
| iter_rw : forall pre w w' post,
    l = pre ++ w ++ post -> rw1 w w' ->
    S (Z.to_nat i) = (length w + length pre)%nat ->
    0 <= i' - (i - Z.of_nat (length w) + Z.of_nat (length w')) <= 1 ->
    l' = pre ++ w' ++ post -> iter l i l' i'.
Arguments iter_rw {l i l' i' pre w w' post}.

Lemma iter_rewrites : forall l i l' i', iter l i l' i' -> l' = l \/ rewrites l l'.
Proof.
  intros l i l' i' [E _ | pre w w' post Hl Hw _ _ Hl']; [now left|].
  right. exists pre, w, w', post. auto.
Qed.

Lemma iter_decreases : forall l i l' i', 0 <= i < lenZ l -> iter l i l' i' ->
  3 * lenZ l' - i' < 3 * lenZ l - i /\ -1 <= i' <= lenZ l'.
Proof.
  intros l i l' i' Hr [-> -> | pre w w' post -> Hw Hi Hi' ->]; [lia|].
  apply rw1_shrinks in Hw. unfold lenZ in *. rewrite !app_length in *. lia.
Qed.

(* without a predecessor no rule applies *)
Lemma step_first : forall l, step convf f1 f2 l 0 = SNext l 1.
Proof. intros l. unfold step. simpl. destruct (get l 0); reflexivity. Qed.

(* what an iteration's result has to satisfy: a crash or a give-up claims nothing *)
Definition iter_res l i (r : sres) : Prop :=
  match r with SNext l' i' => iter l i l' i' | _ => True end.

Definition iter_opt l i (o : option sres) : Prop :=
  match o with Some r => iter_res l i r | None => True end.

Lemma orelse_iter : forall l i a b, iter_opt l i a -> iter_res l i b -> iter_res l i (orelse a b).
Proof. intros l i [r|] b Ha Hb; assumption. Qed.

(* rules 6 and 7 and the final i += 1: a push% before a jz is folded, the
   instruction after a halt is deleted unless it is a mark, and otherwise
   nothing happens *)
Lemma r_tail_cases : forall l i cur prev1,
  (exists t v, cur = PJz t /\ prev1 = PPush 1 v /\
     r_tail l i cur prev1 =
     if py_eq0 v then SNext (setn (del l (i - 1)) (i - 1) (PJmp t)) (i - 1 + 1)
     else SNext (del (del l i) (i - 1)) (i - 2 + 1)) \/
  (prev1 = PHalt /\ is_mark cur = false /\ r_tail l i cur prev1 = SNext (del l i) (i - 1 + 1)) \/
  r_tail l i cur prev1 = SNext l (i + 1).
Proof.
  intros l i cur prev1.
  destruct prev1 as [tc v| | | | | | | | | | | | |];
    try (right; right; destruct cur; reflexivity).
  - destruct cur as [| | | | | | | | | |t| | |]; try (right; right; reflexivity).
    destruct (Z.eqb_spec tc 1) as [->|Hn].
    + left. exists t, v. repeat split. unfold r_tail. simpl. now destruct (py_eq0 v).
    + right; right. unfold r_tail. now rewrite (proj2 (Z.eqb_neq _ _) Hn).
  - destruct cur; try (right; left; repeat split; reflexivity). right; right; reflexivity.
Qed.

(* A rule that fires at an index with a predecessor.  Each proof writes the
   list as prefix, window, rest, sees from the rule's guards which rewrite it
   is, and lets the edits, which lie behind the prefix, compute. *)
Section Fires.
Variables (l : list pins) (i : Z).
Hypothesis Hr : 0 < i < lenZ l.

Lemma r_push_conv_iter : iter_opt l i (r_push_conv convf l i (get l i) (get l (i - 1))).
Proof.
  destruct (window2 l i Hr) as (pre & post & Hl & Hi1 & Hi).
  unfold r_push_conv.
  destruct (get l i); try exact I. destruct (get l (i - 1)); try exact I.
  destruct (Z.eqb_spec src tc) as [->|]; [|exact I].
  destruct (convf dst v) as [v'| | |] eqn:Hv; try exact I; [|now apply iter_skip].
  eapply (iter_rw Hl); [exact (rw_push_conv _ _ _ _ Hv) | exact (f_equal S Hi) | clear; simpl; lia |].
  rewrite Hl, (setn_app pre _ _ 0 _ Hi1), (del_app pre _ _ 1 Hi). reflexivity.
Qed.

Lemma r_read_store_iter : iter_opt l i (r_read_store l i (get l i) (get l (i - 1))).
Proof.
  destruct (window2 l i Hr) as (pre & post & Hl & Hi1 & Hi).
  unfold r_read_store.
  destruct (get l i); try exact I. destruct (get l (i - 1)); try exact I.
  destruct (Z.eqb_spec scope scope0) as [->|]; [|exact I].
  destruct (zs_eqb args args0) eqn:Ha; [|exact I].
  apply zs_eqb_eq in Ha. subst args0.
  eapply (iter_rw Hl); [apply rw_read_store | exact (f_equal S Hi) | clear; simpl; lia |].
  rewrite Hl, (del_app pre _ _ 1 Hi), (del_app pre _ _ 0 Hi1). reflexivity.
Qed.

Lemma r_push_un_iter : iter_opt l i (r_push_un f1 l i (get l i) (get l (i - 1))).
Proof.
  destruct (window2 l i Hr) as (pre & post & Hl & Hi1 & Hi).
  unfold r_push_un.
  destruct (get l i); try exact I. destruct (get l (i - 1)); try exact I.
  destruct (f1 o tc v) as [v'| | |] eqn:Hv; try exact I.
  eapply (iter_rw Hl); [exact (rw_push_un _ _ _ _ Hv) | exact (f_equal S Hi) | clear; simpl; lia |].
  rewrite Hl, (setn_app pre _ _ 0 _ Hi1), (del_app pre _ _ 1 Hi). reflexivity.
Qed.

Lemma r_push_bin_iter :
  iter_opt l i (r_push_bin f2 l i (get l i) (get l (i - 1)) (if 1 <? i then get l (i - 2) else nop)).
Proof.
  unfold r_push_bin.
  destruct (Z.ltb_spec 1 i) as [H1|H1].
  2: { destruct (get l i); try exact I. destruct (get l (i - 1)); exact I. }
  destruct (window3 l i) as (pre & post & Hl & Hi2 & Hi1 & Hi); [lia|].
  destruct (get l i); try exact I. destruct (get l (i - 1)); try exact I.
  destruct (get l (i - 2)); try exact I.
  destruct (Z.eqb_spec tc tc0) as [->|]; [|exact I].
  destruct (f2 o tc0 v0 v) as [v'| | |] eqn:Hv; try exact I; [|now apply iter_skip].
  eapply (iter_rw Hl); [exact (rw_push_bin _ _ _ _ _ Hv) | exact (f_equal S Hi) | clear; simpl; lia |].
  rewrite Hl, (setn_app pre _ _ 0 _ Hi2), (del_app pre _ _ 2 Hi), (del_app pre _ _ 1 Hi1).
  reflexivity.
Qed.

Lemma r_jmp_jmp_iter : iter_opt l i (r_jmp_jmp l i (get l i) (get l (i - 1))).
Proof.
  destruct (window2 l i Hr) as (pre & post & Hl & Hi1 & Hi).
  unfold r_jmp_jmp.
  destruct (is_jump (get l i)) eqn:Hc; [|exact I].
  destruct (is_jump (get l (i - 1))) eqn:Hp; [|exact I].
  eapply (iter_rw Hl); [exact (rw_jmp_jmp _ _ Hp Hc) | exact (f_equal S Hi) | clear; simpl; lia |].
  rewrite Hl at 1. rewrite (del_app pre _ _ 1 Hi). reflexivity.
Qed.

Lemma r_tail_iter : iter_res l i (r_tail l i (get l i) (get l (i - 1))).
Proof.
  destruct (window2 l i Hr) as (pre & post & Hl & Hi1 & Hi).
  destruct (r_tail_cases l i (get l i) (get l (i - 1)))
    as [(t & v & Hc & Hp & ->) | [(Hp & Hm & ->) | ->]].
  - rewrite Hc, Hp in Hl. destruct (py_eq0 v) eqn:Hz.
    + eapply (iter_rw Hl); [exact (rw_push_jz_taken _ _ Hz) | exact (f_equal S Hi) | clear; simpl; lia |].
      rewrite Hl, (del_app pre _ _ 0 Hi1), (setn_app pre _ _ 0 _ Hi1). reflexivity.
    + eapply (iter_rw Hl); [exact (rw_push_jz_never _ _ Hz) | exact (f_equal S Hi) | clear; simpl; lia |].
      rewrite Hl, (del_app pre _ _ 1 Hi), (del_app pre _ _ 0 Hi1). reflexivity.
  - rewrite Hp in Hl.
    eapply (iter_rw Hl); [exact (rw_after_halt _ Hm) | exact (f_equal S Hi) | clear; simpl; lia |].
    rewrite Hl at 1. rewrite (del_app pre _ _ 1 Hi). reflexivity.
  - now apply iter_skip.
Qed.

End Fires.

Lemma step_iter : forall l i l' i', 0 <= i < lenZ l ->
  step convf f1 f2 l i = SNext l' i' -> iter l i l' i'.
Proof.
  intros l i l' i' Hr H.
  destruct (Z.eq_dec i 0) as [-> | Hi].
  { rewrite step_first in H. injection H as <- <-. now apply iter_skip. }
  assert (Hr' : 0 < i < lenZ l) by lia.
  change (iter_res l i (SNext l' i')). rewrite <- H. unfold step.
  rewrite (proj2 (Z.ltb_lt 0 i)) by lia.
  apply orelse_iter; [exact (r_push_conv_iter l i Hr')|].
  apply orelse_iter; [exact (r_read_store_iter l i Hr')|].
  apply orelse_iter; [exact (r_push_un_iter l i Hr')|].
  apply orelse_iter; [exact (r_push_bin_iter l i Hr')|].
  apply orelse_iter; [exact (r_jmp_jmp_iter l i Hr')|].
  exact (r_tail_iter l i Hr').
Qed.

Lemma opt_loop_S : forall fuel l i,
  (exists l' i', 0 <= Z.max 0 i < lenZ l /\ step convf f1 f2 l (Z.max 0 i) = SNext l' i' /\
     opt_loop convf f1 f2 (S fuel) l i = opt_loop convf f1 f2 fuel l' i') \/
  (exists st, opt_loop convf f1 f2 (S fuel) l i = (l, st) /\ st <> OFuel).
Proof.
  intros fuel l i. simpl opt_loop.
  destruct l as [|a l0]; [right; exists ODone; split; [reflexivity | discriminate]|].
  set (l := a :: l0). assert (Hl : 0 < lenZ l) by (unfold lenZ, l; simpl; lia). clearbody l.
  fold (lenZ l). destruct (Z.ltb_spec i (lenZ l)); [|right; exists ODone; split; [reflexivity | discriminate]].
  replace (if i <? 0 then 0 else i) with (Z.max 0 i) by (destruct (Z.ltb_spec i 0); lia).
  destruct (step convf f1 f2 l (Z.max 0 i)) as [l' i'| k |] eqn:Hs.
  - left. exists l', i'. repeat split; lia.
  - right. exists (OCrash k). split; [reflexivity | discriminate].
  - right. exists OUnk. split; [reflexivity | discriminate].
Qed.

Definition rewrites_star := clos_refl_trans (list pins) rewrites.

Lemma opt_loop_steps : forall fuel l i,
  rewrites_star l (fst (opt_loop convf f1 f2 fuel l i)).
Proof.
  induction fuel as [|f IH]; intros l i; [apply rt_refl|].
  destruct (opt_loop_S f l i) as [(l' & i' & Hr & Hs & ->) | (st & -> & _)]; [|apply rt_refl].
  destruct (iter_rewrites _ _ _ _ (step_iter _ _ _ _ Hr Hs)) as [-> | Hrw]; [apply IH|].
  eapply rt_trans; [apply rt_step; exact Hrw | apply IH].
Qed.

(* 3 * len - i decreases in every iteration *)
Lemma opt_loop_terminates : forall fuel l i,
  i <= lenZ l -> 3 * lenZ l - Z.max 0 i < Z.of_nat fuel ->
  snd (opt_loop convf f1 f2 fuel l i) <> OFuel.
Proof.
  induction fuel as [|f IH]; intros l i Hi Hm; [unfold lenZ in *; lia|].
  destruct (opt_loop_S f l i) as [(l' & i' & Hr & Hs & ->) | (st & -> & Hst)]; [|exact Hst].
  destruct (iter_decreases _ _ _ _ Hr (step_iter _ _ _ _ Hr Hs)). apply IH; lia.
Qed.

Lemma marks_app : forall a b, marks (a ++ b) = marks a ++ marks b.
Proof. intros. apply filter_app. Qed.

Lemma erase_app : forall a b, erase_marks (a ++ b) = erase_marks a ++ erase_marks b.
Proof. intros. apply filter_app. Qed.

Lemma no_mark_filter : forall w, forallb (fun p => negb (is_mark p)) w = true ->
  marks w = [] /\ erase_marks w = w.
Proof.
  induction w as [|x w IH]; simpl; intros H; [split; reflexivity|].
  apply andb_true_iff in H. destruct H as [Hx Hw]. destruct (IH Hw) as [IH1 IH2].
  apply negb_true_iff in Hx. unfold marks, erase_marks in *. simpl.
  rewrite Hx, (not_mark_not_dbg _ Hx), IH1, IH2. split; reflexivity.
Qed.

Lemma rewrites_marks : forall l l', rewrites l l' -> marks l' = marks l.
Proof.
  intros l l' (pre & w & w' & post & -> & -> & H).
  destruct (rw1_no_mark _ _ H) as [Hw Hw'].
  rewrite !marks_app.
  now rewrite (proj1 (no_mark_filter _ Hw)), (proj1 (no_mark_filter _ Hw')).
Qed.

Lemma rewrites_erase : forall l l', rewrites l l' -> rewrites (erase_marks l) (erase_marks l').
Proof.
  intros l l' (pre & w & w' & post & -> & -> & H).
  destruct (rw1_no_mark _ _ H) as [Hw Hw'].
  exists (erase_marks pre), w, w', (erase_marks post).
  rewrite !erase_app, (proj2 (no_mark_filter _ Hw)), (proj2 (no_mark_filter _ Hw')). auto.
Qed.

Lemma star_marks : forall l l', rewrites_star l l' -> marks l' = marks l.
Proof.
  intros l l' H. induction H; [now apply rewrites_marks | reflexivity | congruence].
Qed.

Lemma star_erase : forall l l', rewrites_star l l' ->
  rewrites_star (erase_marks l) (erase_marks l').
Proof.
  intros l l' H. induction H.
  - apply rt_step. now apply rewrites_erase.
  - apply rt_refl.
  - eapply rt_trans; eauto.
Qed.

End ListLevel.

Lemma erase_cons : forall p l,
  erase_marks (p :: l) = if is_dbg_mark p then erase_marks l else p :: erase_marks l.
Proof. intros. unfold erase_marks. simpl. now destruct (is_dbg_mark p). Qed.

(* the three shapes of an instruction the assembler tells apart *)
Lemma pins_shape : forall p,
  is_dbg_mark p = true \/ (exists id, p = PMark MLabel id) \/ is_mark p = false.
Proof. destruct p as [| | | | | | | | | | | |[] id|]; eauto. Qed.

Section AsmFacts.
Variable size : pins -> Z.
Variable routine_of : Z -> option Z.

Lemma asm_go_dbg : forall p l off cur, is_dbg_mark p = true ->
  asm_go size routine_of (p :: l) off cur = asm_go size routine_of l off cur.
Proof. intros p l off cur H. destruct p as [| | | | | | | | | | | |[] id|]; try discriminate; reflexivity. Qed.

Lemma asm_go_nonmark : forall p l off cur, is_mark p = false ->
  asm_go size routine_of (p :: l) off cur =
  let o := asm_go size routine_of l (off + size p) cur in
  mkAsm ((p, off, cur) :: a_code o) (a_labels o) (a_len o).
Proof. intros p l off cur H. destruct p; try reflexivity; discriminate. Qed.

Theorem assemble_ignores_marks : forall l off cur,
  asm_go size routine_of (erase_marks l) off cur = asm_go size routine_of l off cur.
Proof.
  induction l as [|p l IH]; intros off cur; [reflexivity|]. rewrite erase_cons.
  destruct (pins_shape p) as [Hd | [(id & ->) | Hm]].
  - rewrite Hd, asm_go_dbg by exact Hd. apply IH.
  - simpl. now rewrite IH.
  - rewrite (not_mark_not_dbg p Hm), !asm_go_nonmark by exact Hm. now rewrite IH.
Qed.

Hypothesis size_pos : forall p, is_mark p = false -> 0 < size p.

Lemma asm_go_range : forall l off cur,
  let o := asm_go size routine_of l off cur in
  off <= a_len o /\ forall id a, In (id, a) (a_labels o) -> off <= a <= a_len o.
Proof.
  induction l as [|p l IH]; intros off cur; [simpl; split; [lia | contradiction]|].
  destruct (pins_shape p) as [Hd | [(id & ->) | Hm]].
  - rewrite asm_go_dbg by exact Hd. apply IH.
  - simpl. destruct (IH off (match routine_of id with Some c => c | None => cur end)) as [L R].
    split; [exact L|]. intros id' a [E | Hin]; [injection E as <- <-; lia | exact (R _ _ Hin)].
  - rewrite asm_go_nonmark by exact Hm. simpl.
    destruct (IH (off + size p) cur) as [L R]. specialize (size_pos p Hm).
    split; [lia|]. intros id a Hin. specialize (R id a Hin). lia.
Qed.

Lemma asm_app : forall l1 l2 off cur,
  let o1 := asm_go size routine_of l1 off cur in
  exists cur2, let o2 := asm_go size routine_of l2 (a_len o1) cur2 in
  a_labels (asm_go size routine_of (l1 ++ l2) off cur) = a_labels o1 ++ a_labels o2 /\
  a_len (asm_go size routine_of (l1 ++ l2) off cur) = a_len o2.
Proof.
  induction l1 as [|p l1 IH]; intros l2 off cur; [exists cur; split; reflexivity|].
  rewrite <- app_comm_cons. destruct (pins_shape p) as [Hd | [(id & ->) | Hm]].
  - rewrite !asm_go_dbg by exact Hd. apply IH.
  - simpl. destruct (IH l2 off (match routine_of id with Some c => c | None => cur end)) as (c2 & A & B).
    exists c2. rewrite A, B. split; reflexivity.
  - rewrite !asm_go_nonmark by exact Hm. apply IH.
Qed.

(* the instruction deleted after an unconditional transfer (or after halt) does
   not start at the address of any label: it can only be reached by falling
   through, which the transfer never does *)
Theorem dead_instruction_not_a_target : forall pre j x post id a,
  is_mark j = false -> is_mark x = false ->
  In (id, a) (a_labels (asm size routine_of (pre ++ j :: x :: post))) ->
  a <> a_len (asm size routine_of (pre ++ [j])).
Proof.
  intros pre j x post id a Hj Hx Hin. unfold asm in *.
  destruct (asm_app pre (j :: x :: post) 0 0) as (c2 & A & _).
  destruct (asm_app pre [j] 0 0) as (c3 & _ & B).
  rewrite A in Hin. rewrite B. clear A B.
  rewrite asm_go_nonmark in * by exact Hj. rewrite asm_go_nonmark in Hin by exact Hx.
  simpl in *. specialize (size_pos j Hj) as Pj. specialize (size_pos x Hx) as Px.
  apply in_app_or in Hin. destruct Hin as [Hin|Hin]; apply asm_go_range in Hin; lia.
Qed.

End AsmFacts.

Local Arguments fround x : simpl never.

(* a literal the code generator can emit for [push<tc>]: the operand fits the
   instruction's encoding (SINGLE operands are stored as binary32) *)
Definition lit_ok (tc : Z) (v : pyval) : Prop :=
  (tc = 1 /\ exists z, v = PInt z /\ in_int z = true) \/
  (tc = 2 /\ exists z, v = PInt z /\ in_long z = true) \/
  (tc = 3 /\ exists f, v = PFlt f /\ to_single f = Some f) \/
  (tc = 4 /\ exists f, v = PFlt f).

Lemma exec_push_forms : forall m,
  (forall z, exec m (IPushI z) = push 1 (PInt z)) /\
  (forall z, exec m (IPushL z) = push 2 (PInt z)) /\
  (forall f, exec m (IPushS f) = push 3 (PFlt f)) /\
  (forall f, exec m (IPushD f) = push 4 (PFlt f)) /\
  (forall c, exec m (IPushC 1 c) = push 1 (PInt c)) /\
  (forall c, exec m (IPushC 2 c) = push 2 (PInt c)).
Proof. intros. repeat split; reflexivity. Qed.

Lemma st_eta : forall s x, set_stack (set_stack s x) (stack s) = s.
Proof. destruct s; reflexivity. Qed.

Lemma st_eta2 : forall s x y, set_stack (set_stack (set_stack s x) y) (stack s) = s.
Proof. destruct s; reflexivity. Qed.

Lemma two_pushed_popped : forall s a b,
  set_stack
    (set_stack
       {| pc := pc s; prev_pc := prev_pc s; stack := b :: a :: stack s; heap := heap s; cur := cur s;
          halted := halted s; reason := reason s; last_trap := last_trap s; last_kw_ok := last_kw_ok s;
          ttarget_ := ttarget_ s; handler_active := handler_active s; trapped_addr := trapped_addr s;
          irq := irq s; data_part := data_part s; data_idx := data_idx s; last_rnd := last_rnd s;
          scr := scr s; events := events s |} (a :: stack s)) (stack s) = s.
Proof. destruct s; reflexivity. Qed.

Lemma set_stack_same : forall s, set_stack s (stack s) = s.
Proof. intros s. exact (st_eta s []). Qed.

Definition boxes (ty : Z) (v : pyval) (c : cell) : Prop := forall s, mk_cell ty v s = R c s.

Lemma boxes_int : forall z, in_int z = true -> boxes 1 (PInt z) (CI z).
Proof. intros z H s. unfold mk_cell. now rewrite H. Qed.

Lemma boxes_long : forall z, in_long z = true -> boxes 2 (PInt z) (CL z).
Proof. intros z H s. unfold mk_cell. now rewrite H. Qed.

Lemma lit_ok_boxes : forall tc v, lit_ok tc v ->
  exists c, boxes tc v c /\ cell_ty c = tc /\ is_numeric c = true /\ pv c = v.
Proof.
  intros tc v [[-> (z & -> & H)] | [[-> (z & -> & H)] | [[-> (f & -> & H)] | [-> (f & ->)]]]].
  - exists (CI z). repeat split. now apply boxes_int.
  - exists (CL z). repeat split. now apply boxes_long.
  - exists (CS f). repeat split. intros s. unfold mk_cell. now rewrite H.
  - exists (CD f). repeat split.
Qed.

(* a push followed by [k]: [k] runs with the cell on the stack.  The lemmas on
   the instructions below are stated for a stack [c :: st] put on any state and
   leave [set_stack s st]; for [st := stack s] that is [s] again. *)
Lemma push_then : forall ty v c (k : M unit) s, boxes ty v c ->
  (push ty v ;; k) s = k (set_stack s (c :: stack s)).
Proof. intros ty v c k s H. unfold push, bind. now rewrite H. Qed.

Lemma push2_then : forall ta va ca tb vb cb (k : M unit) s, boxes ta va ca -> boxes tb vb cb ->
  (push ta va ;; push tb vb ;; k) s = k (set_stack s (cb :: ca :: stack s)).
Proof. intros. now rewrite (push_then _ _ ca), (push_then _ _ cb). Qed.

(* case analysis on everything the evaluation in [H] inspected *)
Ltac split_matches H :=
  repeat (simpl in H;
          match type of H with
          | context [match ?x with _ => _ end] => destruct x; try discriminate H
          end).

(* where conv_fold has a value on an integral operand, it is what the instruction pushes *)
Lemma conv_fold_int : forall dst z v', (dst = 1 \/ dst = 2 \/ dst = 3 \/ dst = 4) ->
  conv_fold dst (PInt z) = FVal v' ->
  v' = if (dst =? 3) || (dst =? 4) then PFlt (of_Z z) else PInt z.
Proof.
  intros dst z v' [-> | [-> | [-> | ->]]] H;
    unfold conv_fold, py_float_of in H; split_matches H; injection H as <-; reflexivity.
Qed.

Lemma exec_conv : forall m dst c v' s st,
  is_numeric c = true -> (dst = 1 \/ dst = 2 \/ dst = 3 \/ dst = 4) ->
  conv_fold dst (pv c) = FVal v' ->
  exec m (IConv (cell_ty c) dst) (set_stack s (c :: st)) = push dst v' (set_stack s st).
Proof.
  intros m dst c v' s st Hc Hd H.
  destruct c as [z|z|f|f| |]; try discriminate Hc.
  1-2: rewrite (conv_fold_int _ _ _ Hd H); reflexivity.
  all: destruct Hd as [-> | [-> | [-> | ->]]];
    simpl; unfold bind, pop_ty, pop; simpl;
    (* conv_fold gives a value past its tests of the operand (inf / NaN, fround, the range,
       to_single), and those are the tests of the instruction *)
    unfold conv_fold, py_round in H; split_matches H; injection H as <-; reflexivity.
Qed.

(* the guard on SINGLE literals is needed: a push! operand that is not a
   binary32 value is rounded by the assembler, the folder rounds the double *)
Definition f_half_plus : fl := FFin false 4503599627370497 (-53).   (* 0.5 + 2^-53 *)

Definition pm0 : module := mkModule [] [] [] 0 None.
Definition ps0 : st := init_state pm0 (mkScript [] [] [] []).

(* what the assembler emits for push! x: the operand packed with '>f' *)
Definition asm_single (f : fl) : fl := match to_single f with Some f' => f' | None => f end.

Lemma exec_jz : forall m t n s st,
  exec m (IJz t) (set_stack s (CI n :: st)) =
  (if n =? 0 then modify (fun s => set_pc s t) else ret tt) (set_stack s st).
Proof. reflexivity. Qed.

Theorem push_jz : forall m t n s, in_int n = true ->
  (push 1 (PInt n) ;; exec m (IJz t)) s = (if n =? 0 then exec m (IJmp t) else ret tt) s.
Proof.
  intros m t n s Hn. rewrite (push_then _ _ _ _ _ (boxes_int n Hn)), exec_jz, set_stack_same.
  now destruct (n =? 0).
Qed.

Lemma seg_eta : forall sg, mkSeg (s_cells sg) (s_kind sg) = sg.
Proof. destruct sg; reflexivity. Qed.

Lemma set_heap_same : forall s, set_heap s (heap s) = s.
Proof. destruct s; reflexivity. Qed.

Lemma scope_seg_inv : forall loc s g s1, scope_seg loc s = R g s1 ->
  s1 = s /\ forall h, scope_seg loc (set_heap s h) = R g (set_heap s h).
Proof.
  intros loc s g s1 H. destruct loc; simpl in *; unfold cur_frame, ret in *; simpl.
  - destruct (cur s); inversion H. auto.
  - inversion H. auto.
Qed.

Lemma read_var_inv : forall loc i s oc s',
  read_var loc i s = R oc s' ->
  s' = s /\ exists g sg, scope_seg loc s = R g s /\ nthZ (heap s) g = Some sg /\
                        nthZ (s_cells sg) i = Some oc.
Proof.
  intros loc i s oc s' H. unfold read_var, bind in H.
  destruct (scope_seg loc s) as [g s1| | | |] eqn:Hsc; try discriminate.
  destruct (scope_seg_inv _ _ _ _ Hsc) as [-> _]. unfold get_seg in H.
  destruct (nthZ (heap s) g) as [sg|] eqn:Hg; try discriminate.
  destruct (nthZ (s_cells sg) i) as [c|] eqn:Hc; try discriminate.
  injection H as <- <-. split; [reflexivity|]. exists g, sg. auto.
Qed.

Lemma write_then_read : forall loc i c s s',
  write_var loc i c s = R tt s' -> read_var loc i s' = R (Some c) s'.
Proof.
  intros loc i c s s' H. unfold write_var, bind in H.
  destruct (scope_seg loc s) as [g s1| | | |] eqn:Hsc; try discriminate.
  destruct (scope_seg_inv _ _ _ _ Hsc) as [-> Hsc']. unfold get_seg in H.
  destruct (nthZ (heap s) g) as [sg|] eqn:Hg; try discriminate.
  destruct (setZ (s_cells sg) i (Some c)) as [cells'|] eqn:Hc; try discriminate.
  unfold seg_set, bind, get_seg in H. rewrite Hg, Hc in H.
  destruct (setZ (heap s) g (mkSeg cells' (s_kind sg))) as [heap'|] eqn:Hh; try discriminate.
  injection H as <-.
  unfold read_var, bind. rewrite Hsc'. unfold get_seg. simpl heap.
  rewrite (setZ_then_nthZ _ _ _ _ Hh). cbn [s_cells]. now rewrite (setZ_then_nthZ _ _ _ _ Hc).
Qed.

Lemma write_var_same : forall loc i c s,
  read_var loc i s = R (Some c) s -> write_var loc i c s = R tt s.
Proof.
  intros loc i c s H.
  destruct (read_var_inv _ _ _ _ _ H) as (_ & g & sg & Hsc & Hg & Hc).
  unfold write_var, bind. rewrite Hsc. unfold get_seg. rewrite Hg.
  rewrite (nthZ_setZ_same _ _ _ Hc).
  unfold seg_set, bind, get_seg. rewrite Hg, (nthZ_setZ_same _ _ _ Hc).
  now rewrite seg_eta, (nthZ_setZ_same _ _ _ Hg), set_heap_same.
Qed.

Lemma exec_store : forall m loc i s, exec m (IStore loc i) s = (do v <- pop; write_var loc i v) s.
Proof. intros m loc i s. destruct loc; reflexivity. Qed.

Lemma exec_read : forall m loc ty i s, ty <> 7 ->
  exec m (IRead loc ty i) s =
  (do v <- read_var loc i;
   match v with
   | Some c => repush c
   | None => write_var loc i (default_cell ty);; repush (default_cell ty)
   end) s.
Proof.
  intros m loc ty i s H. simpl. unfold read_generic. now rewrite (proj2 (Z.eqb_neq ty 7) H).
Qed.

Lemma repush_store : forall m loc i c s,
  read_var loc i s = R (Some c) s -> (repush c ;; exec m (IStore loc i)) s = R tt s.
Proof.
  intros m loc i c s H.
  change (exec m (IStore loc i) (set_stack s (c :: stack s)) = R tt s).
  rewrite exec_store.
  change (write_var loc i c (set_stack (set_stack s (c :: stack s)) (stack s)) = R tt s).
  rewrite st_eta. now apply write_var_same.
Qed.

(* the sequence  read<X> v ; store<X> v  on a state where reading v succeeds:
   if the cell holds a value nothing changes at all; if it is unset the only
   effect is that it now holds the default of the read's type *)
Theorem rule_read_store_sound : forall m loc ty i s oc,
  ty <> 7 -> read_var loc i s = R oc s ->
  (exec m (IRead loc ty i) ;; exec m (IStore loc i)) s =
  match oc with
  | Some _ => R tt s
  | None => write_var loc i (default_cell ty) s
  end.
Proof.
  intros m loc ty i s oc Hty Hr.
  unfold bind at 1. rewrite (exec_read _ _ _ _ _ Hty). unfold bind at 1. rewrite Hr.
  destruct oc as [c|].
  - exact (repush_store m loc i c s Hr).
  - (* the read materialises the default, the store writes it again *)
    unfold bind at 1.
    destruct (write_var loc i (default_cell ty) s) as [[] s'| | | |] eqn:Hw; try reflexivity.
    exact (repush_store m loc i _ s' (write_then_read _ _ _ _ _ Hw)).
Qed.

Definition un_instr (o : unop) : instr := match o with UNot => INot | UNeg => INeg end.

Definition un_int (o : unop) (z : Z) : Z := match o with UNot => Z.lnot z | UNeg => - z end.

Lemma exec_un : forall m o c z s st, c = CI z \/ c = CL z ->
  exec m (un_instr o) (set_stack s (c :: st)) = push (cell_ty c) (PInt (un_int o z)) (set_stack s st).
Proof. intros m o c z s st [-> | ->]; destruct o; reflexivity. Qed.

(* on the machine  push z ; not/neg  is the push of the operation's result
   (both trap if that is out of range) *)
Theorem push_un : forall m o tc c z s,
  (tc = 1 /\ c = CI z) \/ (tc = 2 /\ c = CL z) -> boxes tc (PInt z) c ->
  (push tc (PInt z) ;; exec m (un_instr o)) s = push tc (PInt (un_int o z)) s.
Proof.
  intros m o tc c z s Hc Hb.
  rewrite (push_then _ _ _ _ _ Hb), (exec_un m o c z), set_stack_same
    by (destruct Hc as [[_ ->] | [_ ->]]; auto).
  now destruct Hc as [[-> ->] | [-> ->]].
Qed.

(* UnaryOp.eval on an integral literal: the operation, then the clamp *)
Lemma fold1_int : forall o tc z, tc = 1 \/ tc = 2 ->
  fold1 o tc (PInt z) =
  let lo := if tc =? 1 then -32768 else -2147483648 in
  let hi := if tc =? 1 then 32767 else 2147483647 in
  FVal (PInt (if (un_int o z >? hi) || (un_int o z <? lo) then lo else un_int o z)).
Proof. intros o tc z [-> | ->]; destruct o; reflexivity. Qed.

(* INTEGER and LONG operands: the fold is right except for the negation of
   the most negative value, which traps at run time and is clamped by
   UnaryOp.eval *)
Theorem rule_push_unary_sound_partial : forall m o tc z v' s,
  (tc = 1 /\ in_int z = true) \/ (tc = 2 /\ in_long z = true) ->
  (o = UNeg -> z <> (if tc =? 1 then -32768 else -2147483648)) ->
  fold1 o tc (PInt z) = FVal v' ->
  (push tc (PInt z) ;; exec m (un_instr o)) s = push tc v' s.
Proof.
  intros m o tc z v' s Htc Hmin Hf.
  rewrite fold1_int in Hf by (destruct Htc as [[-> _] | [-> _]]; auto).
  destruct Htc as [[-> Hz] | [-> Hz]]; simpl in Hf, Hmin;
    (replace (_ || _) with false in Hf
       by (unfold in_int, in_long in Hz;
           destruct o; [unfold un_int, Z.lnot | specialize (Hmin eq_refl)]; simpl; lia));
    injection Hf as <-.
  - apply (push_un m o 1 (CI z)); auto using boxes_int.
  - apply (push_un m o 2 (CL z)); auto using boxes_long.
Qed.

Definition bin_instr (o : binop) : instr :=
  match o with
  | BAdd => IAdd | BSub => ISub | BMul => IMul | BDiv => IDiv | BAnd => IAnd | BOr => IOr
  | BXor => IXor | BEqv => IEqv | BImp => IImp | BIdiv => IIdiv | BMod => IMod | BExp => IExp
  end.

(* BinaryOp.eval on two integral literals of one type, "/" apart: the
   operation on the values, then limit(), which lets a value through unchanged *)
Lemma fold2_int : forall o tc a b, tc = 1 \/ tc = 2 -> o <> BDiv ->
  fold2 o tc (PInt a) (PInt b) = fbind (binop_apply o (PInt a) (PInt b)) (limit tc tc).
Proof. intros o tc a b [-> | ->] Ho; destruct o; try congruence; reflexivity. Qed.

Lemma limit_value : forall tc r v, tc = 1 \/ tc = 2 -> limit tc tc r = FVal v -> v = r.
Proof.
  (* the only branches with a value: an int in range, given back as it is *)
  intros tc r v [-> | ->] H; unfold limit in H; split_matches H; congruence.
Qed.

Local Opaque exp_tail.

Lemma exec_bin : forall m o c a b r s st, c = CI \/ c = CL -> o <> BDiv ->
  binop_apply o (PInt a) (PInt b) = FVal r ->
  exec m (bin_instr o) (set_stack s (c b :: c a :: st)) = push (cell_ty (c a)) r (set_stack s st).
Proof.
  intros m o c a b r s st Hc Ho H.
  destruct o; try congruence; simpl in H;
    try (injection H as <-; destruct Hc as [-> | ->]; reflexivity).
  1-2: (* \ and MOD: both sides test the divisor *)
    destruct (b =? 0) eqn:E; [discriminate|]; injection H as <-;
    destruct Hc as [-> | ->]; simpl; unfold bind, pop; simpl; rewrite E; reflexivity.
  - destruct (b >=? 0) eqn:E; split_matches H. injection H as <-.
    destruct Hc as [-> | ->]; simpl; unfold arith_prelude, bind, pop; simpl;
      rewrite exp_tail_same; unfold exp_tail_ref; simpl; rewrite E; reflexivity.
Qed.

(* INTEGER and LONG operands, every operator but "/" (whose result type is
   SINGLE): whenever the pass folds, the machine computes the same cell *)
Theorem rule_push_binary_integral : forall m o tc (c : Z -> cell) a b v' s,
  (tc = 1 /\ c = CI) \/ (tc = 2 /\ c = CL) ->
  boxes tc (PInt a) (c a) -> boxes tc (PInt b) (c b) -> o <> BDiv ->
  fold2 o tc (PInt a) (PInt b) = FVal v' ->
  (push tc (PInt a) ;; push tc (PInt b) ;; exec m (bin_instr o)) s = push tc v' s.
Proof.
  intros m o tc c a b v' s Hc Ha Hb Ho Hf.
  assert (Ht : tc = 1 \/ tc = 2) by (destruct Hc as [[-> _] | [-> _]]; auto).
  rewrite (fold2_int _ _ _ _ Ht Ho) in Hf.
  destruct (binop_apply o (PInt a) (PInt b)) as [r| | |] eqn:Hr; try discriminate.
  apply (limit_value _ _ _ Ht) in Hf. subst v'.
  rewrite (push2_then _ _ _ _ _ _ _ _ Ha Hb), (exec_bin m o c a b r), set_stack_same
    by (assumption || destruct Hc as [[_ ->] | [_ ->]]; auto).
  now destruct Hc as [[-> ->] | [-> ->]].
Qed.

Definition jump_like (j : instr) : Prop :=
  (exists t, j = IJmp t) \/ j = IIjmp \/ j = IRet \/ j = IRetv.

(* [c] does not look at the pc: entered with another pc it does the same, and
   leaves that other pc in place *)
Definition pc_blind {A} (c : M A) : Prop := forall s p,
  c (set_pc s p) =
  match c s with
  | R a s' => R a (set_pc s' p) | T k b s' => T k b (set_pc s' p) | ZD s' => ZD (set_pc s' p)
  | X k s' => X k (set_pc s' p) | NI s' => NI (set_pc s' p)
  end.

Definition pc_free {A} (c : M A) : Prop :=
  forall s p a r, c (set_pc s p) = R a r -> c s = R a r.

Lemma blind_bind : forall A B (c : M A) (k : A -> M B),
  pc_blind c -> (forall a, pc_blind (k a)) -> pc_blind (bind c k).
Proof.
  intros A B c k Hc Hk s p. unfold bind. rewrite Hc. destruct (c s); try reflexivity. apply Hk.
Qed.

Lemma free_bind : forall A B (c : M A) (k : A -> M B),
  pc_blind c -> (forall a, pc_free (k a)) -> pc_free (bind c k).
Proof.
  intros A B c k Hc Hk s p b r H. unfold bind in *. rewrite Hc in H.
  destruct (c s); try discriminate. exact (Hk _ _ _ _ _ H).
Qed.

Lemma blind_pop : pc_blind pop.
Proof. intros s p. unfold pop. simpl. destruct (stack s); reflexivity. Qed.

Lemma blind_pop_long : pc_blind pop_long.
Proof.
  apply blind_bind; [apply blind_bind; [apply blind_pop|] |]; intros c s p.
  - now destruct (cell_ty c =? 2).
  - now destruct c.
Qed.

Lemma blind_cur_frame : pc_blind cur_frame.
Proof. intros s p. unfold cur_frame. simpl. now destruct (cur s). Qed.

Lemma blind_get_seg : forall g, pc_blind (get_seg g).
Proof. intros g s p. unfold get_seg. simpl. now destruct (nthZ (heap s) g). Qed.

Lemma blind_seg_get : forall g i, pc_blind (seg_get g i).
Proof.
  intros g i. apply blind_bind; [apply blind_get_seg|].
  intros sg s p. now destruct (nthZ (s_cells sg) i).
Qed.

(* ret and retv first check for an active error handler and leave the frame.
   jump_pc_free applies this to [exec m IRet] and [exec m IRetv] as they unfold:
   the function below has to stay convertible to what Cpu.exec does on them *)
Lemma free_return : forall (k : M unit), pc_free k ->
  pc_free (fun s =>
           (if handler_active s then trap T_NO_RESUME else
            do g <- cur_frame; do sg <- get_seg g;
            (match s_kind sg with
             | SFrame prev _ _ _ => modify (fun s => set_cur s prev)
             | _ => crashM CrAttr
             end);; k) s).
Proof.
  intros k Hk s p a r.
  change (handler_active (set_pc s p)) with (handler_active s).
  destruct (handler_active s); [discriminate|]. revert s p a r.
  apply free_bind; [apply blind_cur_frame|]. intros g.
  apply free_bind; [apply blind_get_seg|]. intros sg.
  apply free_bind; [|intros _; exact Hk]. intros s p. now destruct (s_kind sg).
Qed.

(* control never falls through jmp / ijmp / ret / retv: whenever such an
   instruction completes, the state (including the next pc) does not depend on
   the pc it was entered with, i.e. on the address of the instruction after it.
   Each of them ends by overwriting the pc, and [set_pc (set_pc s p) t] is
   [set_pc s t] by computation: that is the [exact H] closing each case. *)
Theorem jump_pc_free : forall m j, jump_like j -> pc_free (exec m j).
Proof.
  intros m j [[t ->] | [-> | [-> | ->]]].
  - intros s p a r H. exact H.
  - apply free_bind; [apply blind_pop_long|]. intros t s p a r H. exact H.
  - apply free_return. apply free_bind; [apply blind_pop_long|]. intros t s p a r H. exact H.
  - apply free_return. apply free_bind; [apply blind_pop|]. intros rv.
    apply free_bind; [destruct rv; try (intros ? ?; reflexivity); apply blind_seg_get|]. intros rv'.
    apply free_bind; [apply blind_pop_long|]. intros t s p a r H. exact H.
Qed.
