(* INPUT: the code of Models/Input.v against its specification.

   Per line, both versions of push_vars are characterised by [pv_spec]: what
   spec_accept (lenient) says, up to the cells a rejected line leaves behind.
   Per statement, exec_decode turns exec_input_gen on the pushed arguments
   into input_loop, and the loop is treated once for every line function with
   a pv_spec (loop_retry, loop_meets_spec) or a rejecting step (exec_reject). *)
From Coq Require Import ZArith List Bool Lia.
From QV Require Import Sx Strs Fl Dec NumFmt Cell Input.
Import ListNotations.
Open Scope Z_scope.

Definition conv_of (o : option cell) : conv :=
  match o with Some c => CvOk c | None => CvBad end.

Lemma convert_spec t f : convert (ty_id t) f = conv_of (spec_value false t f).
Proof.
  destruct t; unfold convert, spec_value; cbn [ty_id negb orb Z.eqb Pos.eqb].
  (* the code tests "out of range" with ||, the specification "in range" with && *)
  1, 2: destruct (py_int f) as [z|]; [|reflexivity]; unfold in_int, in_long;
    destruct (_ || _) eqn:Out, (_ && _) eqn:In; try reflexivity; lia.
  - destruct (py_float f) as [x|]; [|reflexivity]. destruct (to_single x); reflexivity.
  - destruct (py_float f) as [x|]; reflexivity.
  - reflexivity.
Qed.

(* the strict specification only adds tests *)
Lemma spec_value_strict_lenient t f c :
  spec_value true t f = Some c -> spec_value false t f = Some c.
Proof.
  destruct t; unfold spec_value; cbn [negb orb].
  1, 2: destruct (int_syntax f); [auto | discriminate].
  1, 2: destruct (float_syntax f); [|discriminate]; destruct (py_float f) as [x|]; [|auto];
    destruct (is_finite x); [auto | discriminate].
  auto.
Qed.

Lemma spec_values_strict_lenient ts : forall fs vals,
  spec_values true ts fs = Some vals -> spec_values false ts fs = Some vals.
Proof.
  induction ts as [|t ts IH]; intros [|f fs] vals H; cbn in *; try discriminate; auto.
  destruct (spec_value true t f) as [c|] eqn:E; [|discriminate].
  destruct (spec_values true ts fs) as [cs|] eqn:E2; [|discriminate].
  rewrite (spec_value_strict_lenient _ _ _ E), (IH _ _ E2). exact H.
Qed.

Lemma spec_values_length strict ts : forall fs vals,
  spec_values strict ts fs = Some vals ->
  length fs = length ts /\ length vals = length ts.
Proof.
  induction ts as [|t ts IH]; intros [|f fs] vals H; cbn in *; try discriminate.
  - inversion H. split; reflexivity.
  - destruct (spec_value strict t f); [|discriminate].
    destruct (spec_values strict ts fs) as [cs|] eqn:E; [|discriminate].
    inversion H; subst. destruct (IH _ _ E). cbn. lia.
Qed.

Inductive kind := KOk | KRej | KTrap.

(* outcome of the loop and the cells it pushed, computed from the left *)
Fixpoint scan (ps : list (str * Z)) : kind * list cell :=
  match ps with
  | [] => (KOk, [])
  | (v, ty) :: r =>
    match scan r with
    | (KOk, cells) =>
      match convert ty v with
      | CvOk c => (KOk, c :: cells)
      | CvBad => (KRej, cells)
      | CvUnknown => (KTrap, cells)
      end
    | other => other
    end
  end.

Definition pvres_of (r : kind * list cell) (st : list cell) : pvres :=
  match r with
  | (KOk, c) => PVOk (c ++ st)
  | (KRej, c) => PVReject (c ++ st)
  | (KTrap, c) => PVTrap (c ++ st)
  end.

Lemma push_rev_app l1 l2 st :
  push_rev (l1 ++ l2) st =
  match push_rev l1 st with PVOk st' => push_rev l2 st' | r => r end.
Proof.
  revert st; induction l1 as [|[v ty] l1 IH]; intro st; cbn; [reflexivity|].
  destruct (convert ty v); auto.
Qed.

Lemma push_rev_scan ps st : push_rev (rev ps) st = pvres_of (scan ps) st.
Proof.
  induction ps as [|[v ty] ps IH]; cbn [rev scan]; [reflexivity|].
  rewrite push_rev_app, IH.
  destruct (scan ps) as [[| |] cells]; cbn; try reflexivity.
  destruct (convert ty v); reflexivity.
Qed.

Lemma scan_spec ts : forall vs, length vs = length ts ->
  match spec_values false ts vs with
  | Some vals => scan (combine vs (map ty_id ts)) = (KOk, vals)
  | None => exists junk, scan (combine vs (map ty_id ts)) = (KRej, junk)
  end.
Proof.
  induction ts as [|t ts IH]; intros [|f fs] H; cbn in H; try discriminate.
  - reflexivity.
  - cbn [spec_values map combine scan].
    specialize (IH fs ltac:(lia)).
    destruct (spec_values false ts fs) as [cs|].
    + rewrite IH, convert_spec. destruct (spec_value false t f); cbn; eauto.
    + destruct IH as [junk IH]. rewrite IH.
      destruct (spec_value false t f); eauto.
Qed.

(* what a line function does with a line for variables of types [ts]: it
   decides as spec_accept does, pushes the values of an accepted line, and
   leaves [junk l] behind when it rejects [l] *)
Definition pv_spec (pv : str -> list Z -> list cell -> pvres)
           (junk : str -> list cell) (ts : list vty) : Prop :=
  forall l st,
    pv l (map ty_id ts) st =
    match spec_accept false ts l with
    | Some vals => PVOk (vals ++ st)
    | None => PVReject (junk l ++ st)
    end.

Lemma push_vars_known ts : pv_spec push_vars (stale (map ty_id ts)) ts.
Proof.
  intros l st. unfold stale, spec_accept, push_vars. change (fields l) with (spec_fields l).
  rewrite map_length.
  destruct (Nat.eqb_spec (length (spec_fields l)) (length ts)) as [HL|HL].
  - rewrite !push_rev_scan. pose proof (scan_spec ts _ HL) as S.
    destruct (spec_values false ts (spec_fields l)) as [vals|].
    + rewrite S. reflexivity.
    + destruct S as [junk ->]. cbn. now rewrite app_nil_r.
  - destruct (spec_values false ts (spec_fields l)) eqn:E; [|reflexivity].
    apply spec_values_length in E. tauto.
Qed.

Lemma push_vars_accept ts l st vals :
  spec_accept false ts l = Some vals ->
  push_vars l (map ty_id ts) st = PVOk (vals ++ st).
Proof. intro H. now rewrite push_vars_known, H. Qed.

Lemma accept_iff ts l st :
  (exists st', push_vars l (map ty_id ts) st = PVOk st') <->
  (exists vals, spec_accept false ts l = Some vals).
Proof.
  rewrite push_vars_known. destruct (spec_accept false ts l); split; intros [x H];
    eauto; discriminate.
Qed.

(* the repaired code runs the same loop on an empty stack and pushes afterwards *)
Lemma convert_rev_push ps : forall pend,
  convert_rev ps pend =
  match push_rev ps pend with
  | PVOk cells => Some (Some cells)
  | PVReject _ => Some None
  | PVTrap _ => None
  end.
Proof.
  induction ps as [|[v ty] ps IH]; intro pend; cbn; [reflexivity|].
  destruct (convert ty v); auto.
Qed.

Lemma push_vars_fixed_spec l tys st :
  push_vars_fixed l tys st =
  match push_vars l tys [] with
  | PVOk cells => PVOk (cells ++ st)
  | PVReject _ => PVReject st
  | PVTrap _ => PVTrap st
  end.
Proof.
  unfold push_vars_fixed, push_vars. destruct (Nat.eqb _ _); [|reflexivity].
  rewrite convert_rev_push. destruct (push_rev _ _); reflexivity.
Qed.

Lemma push_vars_fixed_known ts : pv_spec push_vars_fixed (fun _ => []) ts.
Proof.
  intros l st. rewrite push_vars_fixed_spec, push_vars_known.
  destruct (spec_accept false ts l); [now rewrite app_nil_r | reflexivity].
Qed.

Lemma combine_snoc {A B} (l1 : list A) (l2 : list B) a b :
  length l1 = length l2 -> combine (l1 ++ [a]) (l2 ++ [b]) = combine l1 l2 ++ [(a, b)].
Proof.
  revert l2; induction l1 as [|x l1 IH]; intros [|y l2] H; cbn in *; try discriminate.
  - reflexivity.
  - f_equal. apply IH. lia.
Qed.

Lemma reject_last_clean ts t fs f l st :
  spec_fields l = fs ++ [f] ->
  spec_value false t f = None ->
  push_vars l (map ty_id (ts ++ [t])) st = PVReject st.
Proof.
  intros Hf Hv. unfold push_vars. change (fields l) with (spec_fields l). rewrite Hf.
  destruct (Nat.eqb_spec (length (fs ++ [f])) (length (map ty_id (ts ++ [t])))) as [HL|HL];
    [|reflexivity].
  rewrite map_app. cbn [map].
  rewrite map_length, !app_length in HL. cbn in HL.
  rewrite combine_snoc by (rewrite map_length; lia).
  rewrite rev_unit. cbn [push_rev]. rewrite convert_spec, Hv. reflexivity.
Qed.

Lemma reject_count_clean tys l st :
  length (spec_fields l) <> length tys -> push_vars l tys st = PVReject st.
Proof.
  intro H. unfold push_vars. change (fields l) with (spec_fields l).
  destruct (Nat.eqb_spec (length (spec_fields l)) (length tys)); [contradiction | reflexivity].
Qed.

Lemma pop_types_enc l : forall rest acc,
  pop_types (Z.of_nat (length l)) (map CI l ++ rest) acc = PopOk (rev l ++ acc) rest.
Proof.
  induction l as [|a l IH]; intros rest acc.
  - cbn. destruct rest; reflexivity.
  - cbn [length map app pop_types].
    change (Z.of_nat (S (length l)) <=? 0) with false.
    rewrite Nat2Z.inj_succ, Z.sub_1_r, Z.pred_succ.
    rewrite IH. cbn [rev]. now rewrite <- app_assoc.
Qed.

Lemma exec_decode pv s lines st :
  i_tys s <> [] ->
  exec_input_gen pv lines (stack_at_io s st) =
  input_loop pv (i_question s) (i_prompt s) (flag (i_same_line s))
             (map ty_id (i_tys s)) lines st.
Proof.
  intro Hne. unfold stack_at_io, encode_input.
  rewrite !rev_app_distr, <- (map_map ty_id CI), <- map_rev. cbn [rev app]. rewrite <- app_assoc.
  unfold exec_input_gen.
  replace (Z.of_nat (length (i_tys s)) <=? 0) with false
    by (destruct (i_tys s); [contradiction | reflexivity]).
  rewrite <- (map_length ty_id), <- (rev_length (map ty_id (i_tys s))).
  rewrite pop_types_enc, rev_involutive, app_nil_r. cbn [app].
  now destruct (i_question s).
Qed.

(* a rejected line: Redo, and the statement starts over on what the line left *)
Lemma exec_reject pv s l rest st st' :
  i_tys s <> [] ->
  pv l (map ty_id (i_tys s)) st = PVReject st' ->
  exec_input_gen pv (l :: rest) (stack_at_io s st) =
  i_pre (redo_block (i_question s) (i_prompt s) (flag (i_same_line s)) l)
        (exec_input_gen pv rest (stack_at_io s st')).
Proof.
  intros Hne H. rewrite !exec_decode by exact Hne. cbn [input_loop]. now rewrite H.
Qed.

Definition prompt_of (q : bool) (p : str) : str := p ++ (if q then s_question else []).

Lemma norm_ask q p sl l rest acc :
  norm_acc (ask q p sl l ++ rest) acc =
  EPrint (acc ++ prompt_of q p) :: EInput sl l :: norm_acc rest [].
Proof.
  unfold ask, prompt_of. destruct q; cbn; rewrite <- ?app_assoc, ?app_nil_r; reflexivity.
Qed.

Lemma norm_ask_only q p acc :
  norm_acc (ask_only q p) acc = [EPrint (acc ++ prompt_of q p)].
Proof.
  unfold ask_only, prompt_of. destruct q; cbn; rewrite <- ?app_assoc, ?app_nil_r; reflexivity.
Qed.

Lemma prompt_of_form sl f ts :
  prompt_of (i_question (stmt_of_form sl f ts)) (i_prompt (stmt_of_form sl f ts))
  = spec_prompt_text f.
Proof. destruct f; cbn; unfold prompt_of; cbn; now rewrite ?app_nil_r. Qed.

Lemma ires_evs_pre pre r : ires_evs (i_pre pre r) = pre ++ ires_evs r.
Proof. destruct r; reflexivity. Qed.

Lemma loop_first pv q p sl tys l rest st :
  exists tail,
    ires_evs (input_loop pv q p sl tys (l :: rest) st) = ask_only q p ++ EInput sl l :: tail.
Proof.
  cbn [input_loop]. destruct (pv l tys st) as [st'|st'|st'].
  1, 3: exists []; reflexivity.
  rewrite ires_evs_pre. change (ask q p sl l) with (ask_only q p ++ [EInput sl l]).
  rewrite <- !app_assoc. eexists. reflexivity.
Qed.

Lemma prompt_shape sl f ts l rest st :
  ts <> [] ->
  exists pre tail,
    ires_evs (exec_input (l :: rest) (stack_at_io (stmt_of_form sl f ts) st))
    = pre ++ EInput (flag sl) l :: tail /\
    norm pre = [EPrint (spec_prompt_text f)].
Proof.
  intro Hne. unfold exec_input. rewrite exec_decode by (destruct f; exact Hne).
  replace (i_same_line (stmt_of_form sl f ts)) with sl by (destruct f; reflexivity).
  edestruct loop_first as [tail ->]. eexists _, tail. split; [reflexivity|].
  unfold norm. now rewrite norm_ask_only, prompt_of_form.
Qed.

Lemma flat_map_nil {A B} (f : A -> list B) l :
  (forall x, In x l -> f x = []) -> flat_map f l = [].
Proof.
  induction l as [|a l IH]; intro H; cbn; [reflexivity|].
  rewrite (H a (or_introl eq_refl)), IH; [reflexivity | intros; apply H; now right].
Qed.

Lemma loop_retry pv junk ts (K : pv_spec pv junk ts) q p sl bad good more vals st :
  (forall b, In b bad -> spec_accept false ts b = None) ->
  spec_accept false ts good = Some vals ->
  input_loop pv q p sl (map ty_id ts) (bad ++ good :: more) st =
  IDone (flat_map (redo_block q p sl) bad ++ ask q p sl good)
        (vals ++ flat_map junk (rev bad) ++ st).
Proof.
  intros Hbad Hgood.
  revert st. induction bad as [|b bad IH]; intro st; cbn [app input_loop]; rewrite K.
  - now rewrite Hgood.
  - rewrite (Hbad b (or_introl eq_refl)), IH by (intros; apply Hbad; now right).
    cbn [i_pre flat_map rev]. unfold redo_block at 2.
    rewrite flat_map_app. cbn [flat_map]. rewrite app_nil_r.
    f_equal; rewrite <- !app_assoc; reflexivity.
Qed.

Lemma retry_unbounded n bad good more vals s st :
  length bad = n ->
  i_tys s <> [] ->
  (forall b, In b bad -> spec_accept false (i_tys s) b = None) ->
  spec_accept false (i_tys s) good = Some vals ->
  exec_input (bad ++ good :: more) (stack_at_io s st) =
  IDone (flat_map (redo_block (i_question s) (i_prompt s) (flag (i_same_line s))) bad
         ++ ask (i_question s) (i_prompt s) (flag (i_same_line s)) good)
        (vals ++ flat_map (stale (map ty_id (i_tys s))) (rev bad) ++ st).
Proof.
  intros _ Hne. unfold exec_input. rewrite exec_decode by exact Hne.
  apply loop_retry, push_vars_known.
Qed.

Lemma meets_pre r s st pre pre' :
  (forall rest rest' acc, (forall acc', norm_acc rest acc' = norm_acc rest' acc') ->
     norm_acc (pre ++ rest) acc = norm_acc (pre' ++ rest') acc) ->
  meets r s st -> meets (i_pre pre r) (s_pre pre' s) st.
Proof.
  intros Hp. destruct s as [e v|e]; cbn; intros [e' [-> He]]; cbn; eexists; split;
    try reflexivity; intro acc; apply Hp, He.
Qed.

Lemma loop_meets_spec pv junk ts q p f sl lines st :
  pv_spec pv junk ts ->
  prompt_of q p = spec_prompt_text f ->
  (forall l, In l lines -> junk l = []) ->
  meets (input_loop pv q p sl (map ty_id ts) lines st) (spec_run false f sl ts lines) st.
Proof.
  intros K Hp. induction lines as [|l rest IH]; intro Hclean.
  - cbn. eexists; split; [reflexivity|]. intro acc. now rewrite norm_ask_only, Hp.
  - cbn [input_loop spec_run]. rewrite K.
    destruct (spec_accept false ts l) as [vals|].
    + cbn. eexists; split; [reflexivity|]. intro acc.
      rewrite <- (app_nil_r (ask q p sl l)), norm_ask, Hp. reflexivity.
    + rewrite (Hclean l (or_introl eq_refl)).
      apply meets_pre; [|apply IH; intros; apply Hclean; now right].
      intros r r' acc Hr. rewrite <- !app_assoc, norm_ask, Hp.
      cbn [spec_ask app norm_acc]. now rewrite Hr.
Qed.

Lemma exec_meets_spec pv junk sl f ts (K : pv_spec pv junk ts) lines st :
  ts <> [] ->
  (forall l, In l lines -> junk l = []) ->
  meets (exec_input_gen pv lines (stack_at_io (stmt_of_form sl f ts) st))
        (spec_run false f (flag sl) ts lines) st.
Proof.
  intros Hne Hclean. rewrite exec_decode by (destruct f; exact Hne).
  pose proof (prompt_of_form sl f ts) as Hp.
  destruct f; apply (loop_meets_spec pv junk ts); assumption.
Qed.

Lemma strict_run_agrees f sl ts lines :
  (forall l, In l lines -> spec_accept true ts l = spec_accept false ts l) ->
  spec_run true f sl ts lines = spec_run false f sl ts lines.
Proof.
  induction lines as [|l rest IH]; intro H; [reflexivity|].
  cbn [spec_run]. rewrite (H l (or_introl eq_refl)).
  destruct (spec_accept false ts l); [reflexivity|].
  rewrite IH; [reflexivity | intros; apply H; now right].
Qed.

Lemma do_stores_spec targets : forall vals st written,
  length vals = length targets ->
  do_stores targets (vals ++ st) written = Some (st, written ++ combine targets vals).
Proof.
  induction targets as [|t ts IH]; intros [|v vals] st written H; cbn in H; try discriminate.
  - cbn. now rewrite app_nil_r.
  - cbn [app do_stores combine]. rewrite IH by lia. now rewrite <- app_assoc.
Qed.

Lemma assign_in_order ts l st vals targets :
  spec_accept false ts l = Some vals ->
  length targets = length ts ->
  push_vars l (map ty_id ts) st = PVOk (vals ++ st) /\
  spec_values false ts (spec_fields l) = Some vals /\
  do_stores targets (vals ++ st) [] = Some (st, combine targets vals).
Proof.
  intros H HL. split; [now apply push_vars_accept|]. split; [exact H|].
  apply (do_stores_spec targets vals st []).
  destruct (spec_values_length _ _ _ _ H). lia.
Qed.

Lemma bits_pos m : 0 < m -> bits m = Z.log2 m + 1.
Proof. intro H. unfold bits. destruct (Z.leb_spec m 0); [lia | reflexivity]. Qed.

(* a value m * 2^e with e + bits m > emax rounds to infinity.  When bits are
   cut off, the [prec] kept ones still stand at e + bits m - prec and above,
   and rounding up never shortens them. *)
Lemma round_gen_overflow prec emin emax neg m e sticky :
  1 < prec -> 0 < m -> emin <= e + bits m - prec -> emax < e + bits m ->
  round_gen prec emin emax neg m e sticky = FInf neg.
Proof.
  intros Hp Hm Hmin Hmax. unfold round_gen.
  destruct (Z.leb_spec m 0); [lia|].
  rewrite Z.max_l by exact Hmin.
  destruct (Z.leb_spec (e + bits m - prec) e).
  - destruct (Z.gtb_spec (bits m + e) emax); [reflexivity | lia].
  - set (q := Z.shiftr m _).
    match goal with |- context [if ?b then q + 1 else q] => generalize b; intro up end.
    set (q' := if up then q + 1 else q).
    assert (Hq : Z.log2 q = prec - 1).
    { unfold q. rewrite Z.log2_shiftr, (bits_pos m) by exact Hm. lia. }
    assert (Hq' : 1 < q' /\ prec - 1 <= Z.log2 q').
    { pose proof (Z.log2_null q). rewrite <- Hq.
      split; [|apply Z.log2_le_mono]; destruct up; subst q'; lia. }
    rewrite (bits_pos q') by lia.
    destruct (Z.eqb_spec q' 0); [lia|].
    destruct (Z.gtb_spec (Z.log2 q' + 1 + (e + bits m - prec)) emax); [reflexivity | lia].
Qed.

(* c * 10^k >= 8^k = 2^(3k) *)
Lemma bits_pow10 c k : 0 < c -> 0 <= k -> 3 * k < bits (c * 10 ^ k).
Proof.
  intros Hc Hk.
  assert (H : 2 ^ (3 * k) <= c * 10 ^ k).
  { rewrite Z.pow_mul_r by lia. change (2 ^ 3) with 8.
    pose proof (Z.pow_le_mono_l 8 10 k). pose proof (Z.pow_pos_nonneg 8 k). nia. }
  pose proof (Z.pow_pos_nonneg 2 (3 * k)).
  rewrite bits_pos by lia. apply Z.log2_le_pow2 in H; lia.
Qed.

Lemma dec_to_fl_overflow neg c k : 0 < c -> 342 <= k -> dec_to_fl neg c k = FInf neg.
Proof.
  intros Hc Hk. unfold dec_to_fl, dec_to_fl_gen.
  destruct (Z.leb_spec c 0); [lia|]. destruct (Z.geb_spec k 0); [|lia].
  pose proof (bits_pow10 c k). pose proof (Z.pow_pos_nonneg 10 k).
  apply round_gen_overflow; nia.
Qed.

(* "1e400".  Evaluating 10^400 is what the model does and what is avoided
   here: the parser is run up to dec_to_fl, the rest is the lemma above. *)
Lemma py_float_1e400 : py_float [49; 101; 52; 48; 48] = Some (FInf false).
Proof.
  change (py_float _) with (Some (dec_to_fl false 1 400)).
  now rewrite dec_to_fl_overflow.
Qed.

(* D29: a numeral float() reads as an infinity or a NaN is held by no type,
   and is assigned to a DOUBLE variable all the same *)
Lemma nonfinite_double f x :
  spec_fields f = [f] -> py_float f = Some x -> is_finite x = false ->
  spec_accept true [VDouble] f = None /\ push_vars f [ty_id VDouble] [] = PVOk [CD x].
Proof.
  intros Hf Hx Hfin. split; [|apply (push_vars_accept [VDouble] f [] [CD x])];
    unfold spec_accept; rewrite Hf; cbn [spec_values spec_value negb orb]; rewrite Hx.
  - rewrite Hfin. destruct (float_syntax f); reflexivity.
  - reflexivity.
Qed.
