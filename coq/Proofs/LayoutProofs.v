(* Proofs about Models/Layout.v (pure layout) and about the memory
   instructions of Models/Cpu.v, for Props/C04.v.

   Layout: a well-formed path into an object stays inside the object
   (paths_in_object) and is determined by the cell it reaches
   (paths_injective).  The variables of a frame or of the global area are laid
   out like the fields of one record, so the same two theorems cover them.

   Machine: an instruction is run on a state of which a few equations are known
   (the top of the stack, the segment addressed), one lemma per primitive of
   the state monad, and bind_R to pass from one primitive to the next. *)
From Coq Require Import ZArith List Bool Lia.
From QV Require Import Sx Strs Layout.
Import ListNotations.
Open Scope Z_scope.

(* Pass2.process_dim_pre rejects a static dimension with lbound > ubound *)
Fixpoint wf_ty (t : ty) : Prop :=
  match t with
  | TArray bs e => Forall (fun b => fst b <= snd b) bs /\ wf_ty e
  | _ => True
  end.

Definition wf_fields (fs : fields) : Prop := Forall (fun f => wf_ty (snd f)) fs.
Definition wf_env (env : renv) : Prop := Forall (fun r => wf_fields (snd r)) env.
Definition wf_decls (ds : decls) : Prop := Forall (fun d => wf_ty (snd d)) ds.

Inductive step := SIdx (idxs : list Z) | SFld (f : str).

(* [denotes env t p o k]: inside an object of type t, the well-formed path p
   (index tuples within the declared bounds, existing field names) ends at a
   scalar cell of builtin type k, o cells after the start of the object.
   The offsets are those the code generator and the machine compute:
   get_dotted_index for field chains, _exec_arridx for index tuples. *)
Inductive denotes : renv -> ty -> list step -> Z -> Z -> Prop :=
| DScalar env k : denotes env (TBuiltin k) [] 0 k
| DField env n fs env' f off ft p o k :
    lookup_rec env n = Some (fs, env') ->
    field_offset env' fs f 0 = Some (off, ft) ->
    denotes env' ft p o k ->
    denotes env (TRecord n) (SFld f :: p) (off + o) k
| DElem env bs e idxs num es p o k :
    elem_number bs idxs = Some num ->
    type_size env e = Some es ->
    denotes env e p o k ->
    denotes env (TArray bs e) (SIdx idxs :: p) (header_size bs + num * es + o) k.

(* first declaration of a name (dict lookup) *)
Fixpoint decl_ty (ds : decls) (v : str) : option ty :=
  match ds with
  | [] => None
  | (n, t) :: r => if str_eqb v n then Some t else decl_ty r v
  end.

Lemma sum_opt_app a b :
  sum_opt (a ++ b) =
  match sum_opt a, sum_opt b with Some x, Some y => Some (x + y) | _, _ => None end.
Proof.
  induction a as [|[x|] a IH]; simpl.
  - destruct (sum_opt b); reflexivity.
  - rewrite IH. destruct (sum_opt a), (sum_opt b); try reflexivity. f_equal. lia.
  - reflexivity.
Qed.

Lemma prod_dims_pos bs : Forall (fun b => fst b <= snd b) bs -> 1 <= prod_list (dims bs).
Proof.
  induction 1 as [|[lb ub] bs H _ IH]; simpl in *; [lia | nia].
Qed.

Lemma header_size_ge bs : 3 <= header_size bs.
Proof. unfold header_size, rank. lia. Qed.

Lemma type_size_array env bs e :
  type_size env (TArray bs e)
  = option_map (fun es => prod_list (dims bs) * es + header_size bs) (type_size env e).
Proof. unfold type_size. simpl. destruct (size_with _ e); reflexivity. Qed.

(* The sizes of records are defined by recursion on the environment, those of
   types by recursion on the type with the records as a parameter [rs]: the
   two inductions are separated in the same way. *)
Lemma size_with_nonneg rs t z :
  (forall n s, rs n = Some s -> 0 <= s) -> wf_ty t -> size_with rs t = Some z -> 0 <= z.
Proof.
  intros Hrs. revert z. induction t as [k|n|bs e IH|e IH]; simpl; intros z Hw Hs.
  - inversion Hs; lia.
  - eauto.
  - destruct Hw as [Hb He]. destruct (size_with rs e) as [es|]; [|discriminate].
    inversion Hs. specialize (IH es He eq_refl).
    pose proof (prod_dims_pos bs Hb). pose proof (header_size_ge bs). nia.
  - inversion Hs; lia.
Qed.

Lemma sum_fields_nonneg rs (fs : fields) z :
  (forall n s, rs n = Some s -> 0 <= s) -> wf_fields fs ->
  sum_opt (map (fun f => size_with rs (snd f)) fs) = Some z -> 0 <= z.
Proof.
  intros Hrs Hw. revert z. induction Hw as [|[n t] fs Ht _ IH]; simpl; intros z Hs.
  - inversion Hs; lia.
  - destruct (size_with rs t) as [a|] eqn:E; [|discriminate].
    destruct (sum_opt _) as [b|]; [|discriminate]. inversion Hs.
    pose proof (size_with_nonneg rs t a Hrs Ht E). specialize (IH b eq_refl). lia.
Qed.

Lemma rec_size_nonneg env : wf_env env -> forall n s, rec_size env n = Some s -> 0 <= s.
Proof.
  induction 1 as [|[n' fs] env Hf _ IH]; simpl; intros n s Hs; [discriminate|].
  destruct (str_eqb n n'); [|eauto].
  eapply sum_fields_nonneg; eauto.
Qed.

Lemma type_size_nonneg env t z :
  wf_env env -> wf_ty t -> type_size env t = Some z -> 0 <= z.
Proof. intro He. apply size_with_nonneg, rec_size_nonneg, He. Qed.

Lemma sizes_sum_nonneg env fs z : wf_env env -> wf_fields fs -> sizes_sum env fs = Some z -> 0 <= z.
Proof. intro He. apply sum_fields_nonneg, rec_size_nonneg, He. Qed.

Lemma lookup_rec_spec {env n fs env'} :
  wf_env env -> lookup_rec env n = Some (fs, env') ->
  wf_fields fs /\ wf_env env' /\ rec_size env n = sizes_sum env' fs.
Proof.
  induction 1 as [|[n' fs'] env Hf He IH]; simpl; [discriminate|].
  destruct (str_eqb n n'); [|exact IH]. intros [= <- <-]. auto.
Qed.

Lemma field_offset_ge env fs f acc off ft :
  wf_env env -> wf_fields fs -> field_offset env fs f acc = Some (off, ft) -> acc <= off.
Proof.
  intros He Hw. revert acc. induction Hw as [|[n t] fs Ht _ IH]; simpl; intros acc H; [discriminate|].
  destruct (str_eqb f n); [inversion H; lia|].
  destruct (type_size env t) as [sz|] eqn:E; [|discriminate].
  pose proof (type_size_nonneg env t sz He Ht E). apply IH in H. lia.
Qed.

Lemma field_offset_range {env fs f acc off ft total} :
  wf_env env -> wf_fields fs ->
  field_offset env fs f acc = Some (off, ft) -> sizes_sum env fs = Some total ->
  wf_ty ft /\ exists sz, type_size env ft = Some sz /\ acc <= off /\ off + sz <= acc + total.
Proof.
  intros He Hw. revert acc total. unfold sizes_sum.
  induction Hw as [|[n t] fs Ht Hfs IH]; simpl; intros acc total H Hs; [discriminate|].
  destruct (type_size env t) as [sz|] eqn:E; [|destruct (str_eqb f n); discriminate].
  destruct (sum_opt _) as [rest|] eqn:Er; [|discriminate]. inversion Hs.
  pose proof (type_size_nonneg env t sz He Ht E).
  pose proof (sizes_sum_nonneg env fs rest He Hfs Er).
  destruct (str_eqb f n).
  - inversion H; subst. split; [assumption|]. exists sz. repeat split; auto; lia.
  - destruct (IH _ _ H eq_refl) as (W & s & A & B & C). split; [assumption|]. exists s. repeat split; auto; lia.
Qed.

Lemma field_in_record {env n fs env' f off ft sz} :
  wf_env env -> lookup_rec env n = Some (fs, env') -> type_size env (TRecord n) = Some sz ->
  field_offset env' fs f 0 = Some (off, ft) ->
  wf_env env' /\ wf_fields fs /\ wf_ty ft /\
  exists s, type_size env' ft = Some s /\ 0 <= off /\ off + s <= sz.
Proof.
  intros He Hl Hs Hf. destruct (lookup_rec_spec He Hl) as (Wf & We' & E).
  change (rec_size env n = Some sz) in Hs. rewrite E in Hs.
  destruct (field_offset_range We' Wf Hf Hs) as (Wt & s & A & B & C). eauto 10.
Qed.

Lemma fields_disjoint {env fs f1 f2 acc o1 t1 o2 t2 s1 s2} :
  wf_env env -> wf_fields fs ->
  field_offset env fs f1 acc = Some (o1, t1) ->
  field_offset env fs f2 acc = Some (o2, t2) ->
  type_size env t1 = Some s1 -> type_size env t2 = Some s2 ->
  f1 <> f2 ->
  o1 + s1 <= o2 \/ o2 + s2 <= o1.
Proof.
  intros He Hw. revert acc. induction Hw as [|[n t] fs Ht Hfs IH]; simpl; intros acc H1 H2 S1 S2 Hne;
    [discriminate|].
  destruct (str_eqb f1 n) eqn:E1, (str_eqb f2 n) eqn:E2.
  - apply str_eqb_eq in E1, E2. congruence.
  - inversion H1; subst. rewrite S1 in H2. apply field_offset_ge in H2; auto.
  - inversion H2; subst. rewrite S2 in H1. apply field_offset_ge in H1; auto.
  - destruct (type_size env t); [|discriminate]. eauto.
Qed.

Lemma elem_number_cons lb ub bs i l n :
  elem_number ((lb, ub) :: bs) (i :: l) = Some n ->
  lb <= i <= ub /\
  exists r, elem_number bs l = Some r /\ n = (i - lb) * prod_list (dims bs) + r.
Proof.
  simpl. destruct (Z.ltb_spec i lb), (Z.gtb_spec i ub); try discriminate.
  destruct (elem_number bs l) as [r|]; [|discriminate].
  intros [= <-]. split; [lia | eauto].
Qed.

Lemma elem_number_range {bs idxs n} :
  Forall (fun b => fst b <= snd b) bs -> elem_number bs idxs = Some n ->
  0 <= n < prod_list (dims bs).
Proof.
  intros Hb. revert idxs n. induction Hb as [|[lb ub] bs H _ IH]; intros [|i l] n E; try discriminate.
  - inversion E. simpl. lia.
  - apply elem_number_cons in E as (Hi & r & Er & ->).
    specialize (IH _ _ Er). simpl in *. nia.
Qed.

(* key lemma: row-major numbering is injective on in-range index tuples: the
   number of the rest is below the weight of the leading index *)
Lemma elem_number_inj {bs i1 i2 n} :
  Forall (fun b => fst b <= snd b) bs ->
  elem_number bs i1 = Some n -> elem_number bs i2 = Some n -> i1 = i2.
Proof.
  intros Hb. revert i1 i2 n.
  induction Hb as [|[lb ub] bs H Hbs IH]; intros [|a i1] [|b i2] n E1 E2; try discriminate; try reflexivity.
  apply elem_number_cons in E1 as (_ & r1 & R1 & ->).
  apply elem_number_cons in E2 as (_ & r2 & R2 & E).
  pose proof (elem_number_range Hbs R1). pose proof (elem_number_range Hbs R2).
  assert (a = b) by nia. subst b.
  assert (r1 = r2) by lia. subst r2.
  f_equal. eauto.
Qed.

Lemma elem_number_length bs idxs n : elem_number bs idxs = Some n -> length idxs = length bs.
Proof.
  revert idxs n. induction bs as [|[lb ub] bs IH]; intros [|i l] n E; try discriminate; [reflexivity|].
  apply elem_number_cons in E as (_ & r & Er & _). simpl. f_equal. eauto.
Qed.

Lemma elem_index_Some base es bs idxs c :
  elem_index base es bs idxs = Some c ->
  exists n, elem_number bs idxs = Some n /\ c = base + header_size bs + n * es.
Proof.
  unfold elem_index. destruct (elem_number bs idxs) as [n|]; [|discriminate].
  intros [= <-]. eauto.
Qed.

(* C04_arridx_in_segment, pure part: the cell is after the header and inside the
   header_size + array_cells cells of the array *)
Lemma elem_index_in_array base es bs idxs c :
  Forall (fun b => fst b <= snd b) bs -> 0 < es ->
  elem_index base es bs idxs = Some c ->
  base + header_size bs <= c /\ c + es <= base + header_size bs + array_cells es bs.
Proof.
  intros Hb Hes He. apply elem_index_Some in He as (n & E & ->).
  pose proof (elem_number_range Hb E). unfold array_cells. nia.
Qed.

(* the loop of _exec_arridx computes elem_index *)
Lemma arridx_acc_spec es bs : forall idxs n acc,
  elem_number bs idxs = Some n -> arridx_acc es idxs bs acc = acc + n * es.
Proof.
  induction bs as [|[lb ub] bs IH]; intros [|i l] n acc E; try discriminate.
  - inversion E. simpl. lia.
  - apply elem_number_cons in E as (_ & r & Er & ->). simpl. rewrite (IH _ _ _ Er). lia.
Qed.

Lemma heap_array_cells_fold es bs acc :
  fold_left (fun a b => a * ((snd b - fst b + 1) * es)) bs acc
  = acc * (prod_list (dims bs) * es ^ rank bs).
Proof.
  revert acc. unfold rank. induction bs as [|b bs IH]; intro acc; simpl fold_left.
  - simpl. lia.
  - rewrite IH. change (dims (b :: bs)) with ((snd b - fst b + 1) :: dims bs).
    cbn [length prod_list]. rewrite Nat2Z.inj_succ, Z.pow_succ_r by lia. ring.
Qed.

(* Array.__init__ allocates at least the cells indexing can reach; it
   over-allocates exactly when rank >= 2 and element_size >= 2 *)
Lemma heap_array_cells_eq es bs : heap_array_cells es bs = prod_list (dims bs) * es ^ rank bs.
Proof. unfold heap_array_cells. rewrite heap_array_cells_fold. lia. Qed.

Lemma heap_array_cells_ge es bs :
  Forall (fun b => fst b <= snd b) bs -> 1 <= es -> bs <> [] ->
  array_cells es bs <= heap_array_cells es bs.
Proof.
  intros Hb Hes Hne. rewrite heap_array_cells_eq. unfold array_cells.
  pose proof (prod_dims_pos bs Hb).
  destruct bs as [|b bs]; [congruence|].
  unfold rank. cbn [length]. rewrite Nat2Z.inj_succ, Z.pow_succ_r by lia.
  assert (0 < es ^ Z.of_nat (length bs)) by (apply Z.pow_pos_nonneg; lia).
  nia.
Qed.

Theorem paths_in_object {env t p o k} :
  denotes env t p o k -> wf_env env -> wf_ty t ->
  forall {sz}, type_size env t = Some sz -> 0 <= o < sz.
Proof.
  induction 1 as [env k | env n fs env' f off ft p o k Hl Hf Hd IH
                  | env bs e idxs num es p o k Hn He Hd IH]; intros Hwe Hwt sz Hs.
  - inversion Hs; lia.
  - destruct (field_in_record Hwe Hl Hs Hf) as (We' & _ & Wt & s & A & B & C).
    specialize (IH We' Wt s A). lia.
  - destruct Hwt as [Hb Hwe']. rewrite type_size_array, He in Hs. inversion Hs.
    specialize (IH Hwe Hwe' es He).
    pose proof (elem_number_range Hb Hn). pose proof (header_size_ge bs). nia.
Qed.

Theorem paths_injective {env t p1 o k1} :
  denotes env t p1 o k1 -> wf_env env -> wf_ty t ->
  forall sz, type_size env t = Some sz ->
  forall p2 k2, denotes env t p2 o k2 -> p1 = p2 /\ k1 = k2.
Proof.
  induction 1 as [env k | env n fs env' f off ft p o k Hl Hf Hd IH
                  | env bs e idxs num es p o k Hn He Hd IH]; intros Hwe Hwt sz Hs p2 k2 D2.
  - inversion D2; subst. auto.
  - inversion D2 as [| ? ? fs2 env2 f2 off2 ft2 q o2 ? Hl2 Hf2 Hd2 Heq |]; subst.
    rewrite Hl in Hl2. injection Hl2 as <- <-.
    destruct (field_in_record Hwe Hl Hs Hf) as (We' & Wf & Wt1 & s1 & A1 & _).
    destruct (field_in_record Hwe Hl Hs Hf2) as (_ & _ & Wt2 & s2 & A2 & _).
    pose proof (paths_in_object Hd We' Wt1 A1).
    pose proof (paths_in_object Hd2 We' Wt2 A2).
    destruct (list_eq_dec Z.eq_dec f f2) as [<-|Hne].
    + rewrite Hf in Hf2. injection Hf2 as <- <-.
      assert (o2 = o) by lia. subst o2.
      destruct (IH We' Wt1 _ A1 _ _ Hd2) as [-> ->]. auto.
    + destruct (fields_disjoint We' Wf Hf Hf2 A1 A2 Hne); lia.
  - inversion D2 as [| | ? ? ? idxs2 num2 es2 q o2 ? Hn2 He2 Hd2 Heq]; subst.
    rewrite He in He2. injection He2 as <-.
    destruct Hwt as [Hb Hwe'].
    pose proof (paths_in_object Hd Hwe Hwe' He).
    pose proof (paths_in_object Hd2 Hwe Hwe' He).
    assert (num2 = num) by nia. subst num2.
    assert (o2 = o) by lia. subst o2.
    rewrite (elem_number_inj Hb Hn Hn2).
    destruct (IH Hwe Hwe' _ He _ _ Hd2) as [-> ->]. auto.
Qed.

Lemma var_idx_field env ds v acc i t :
  var_idx_from env ds v acc = Some i -> decl_ty ds v = Some t ->
  field_offset env ds v acc = Some (i, t).
Proof.
  revert acc. induction ds as [|[n t'] ds IH]; simpl; intro acc; [discriminate|].
  destruct (str_eqb v n); [congruence|]. destruct (type_size env t'); [apply IH | discriminate].
Qed.

(* The variables of a declaration list are laid out as the fields of a record
   with these declarations: what holds of paths into an object holds of paths
   into a frame or into the global area. *)
Lemma denotes_decls {env ds v i t p o k} :
  var_idx_from env ds v 0 = Some i -> decl_ty ds v = Some t -> denotes env t p o k ->
  denotes (([], ds) :: env) (TRecord []) (SFld v :: p) (i + o) k.
Proof. intros Hi Ht D. eapply DField; [reflexivity | apply var_idx_field; eassumption | exact D]. Qed.

Lemma wf_env_decls {env ds} : wf_env env -> wf_decls ds -> wf_env (([], ds) :: env).
Proof. intros He Hd. constructor; assumption. Qed.

(* paths_in_frame: every well-formed access path (variable, in-range indices,
   field chain) denotes a cell inside [0, total) where total is the sum of the
   declared sizes (the frame size, resp. the size of the global area) *)
Theorem paths_in_frame env ds v i t p o k total :
  wf_env env -> wf_decls ds ->
  var_idx_from env ds v 0 = Some i -> decl_ty ds v = Some t ->
  denotes env t p o k ->
  sizes_sum env ds = Some total ->
  0 <= i + o < total.
Proof.
  intros He Hd Hi Ht D Hs.
  exact (paths_in_object (denotes_decls Hi Ht D) (wf_env_decls He Hd) I Hs).
Qed.

Theorem paths_disjoint env ds total v1 i1 t1 p1 o1 k1 v2 i2 t2 p2 o2 k2 :
  wf_env env -> wf_decls ds -> sizes_sum env ds = Some total ->
  var_idx_from env ds v1 0 = Some i1 -> decl_ty ds v1 = Some t1 -> denotes env t1 p1 o1 k1 ->
  var_idx_from env ds v2 0 = Some i2 -> decl_ty ds v2 = Some t2 -> denotes env t2 p2 o2 k2 ->
  i1 + o1 = i2 + o2 ->
  v1 = v2 /\ p1 = p2 /\ k1 = k2.
Proof.
  intros He Hd Hs Hi1 Ht1 D1 Hi2 Ht2 D2 Heq.
  pose proof (denotes_decls Hi1 Ht1 D1) as R1.
  pose proof (denotes_decls Hi2 Ht2 D2) as R2. rewrite <- Heq in R2.
  destruct (paths_injective R1 (wf_env_decls He Hd) I _ Hs _ _ R2) as [E Hk].
  inversion E. auto.
Qed.

Lemma frame_size_sum env ps ls : frame_size env ps ls = sizes_sum env (ps ++ ls).
Proof.
  unfold frame_size, params_size, local_vars_size, sizes_sum. rewrite map_app, sum_opt_app.
  reflexivity.
Qed.

Lemma denotes_dotted env t chain o k :
  denotes env t (map SFld chain) o k -> dotted_index env t chain = Some o.
Proof.
  revert env t o. induction chain as [|f rest IH]; intros env t o D; simpl in *.
  - inversion D; subst; reflexivity.
  - inversion D as [| ? n fs env' ? off ft ? o' ? Hl Hf Hd |]; subst. simpl.
    rewrite Hl, Hf, (IH _ _ _ Hd). reflexivity.
Qed.

(* D14: the frame instruction pops params_size cells, the callers push one
   value per parameter *)
Lemma params_size_fixed_ok env ps :
  Forall (fun d => type_size env (snd d) = Some 1) ps ->
  params_size env ps = Some (params_size_fixed ps).
Proof.
  unfold params_size, sizes_sum, params_size_fixed.
  induction 1 as [|[n t] ps H _ IH]; [reflexivity|].
  cbn [map sum_opt snd length]. simpl in H. rewrite H, IH. f_equal. lia.
Qed.

(* D14 does show: TYPE r: a, b AS INTEGER / SUB f(p AS r): one argument is
   pushed, two cells are popped *)
Definition d14_env : renv := [([114], [([97], TBuiltin 1); ([98], TBuiltin 1)])].
Definition d14_params : decls := [([112], TRecord [114])].

(* STATIC names: `_static_<routine>_<name>` is injective because identifiers
   (grammar: Word(alphas, alphanums) + optional type character) contain no underscore *)
Lemma app_no_us_inj (r1 r2 n1 n2 : str) :
  ~ In ch_us r1 -> ~ In ch_us r2 ->
  r1 ++ ch_us :: n1 = r2 ++ ch_us :: n2 -> r1 = r2 /\ n1 = n2.
Proof.
  (* if one routine name ends first, the other has an underscore at that place *)
  revert r2. induction r1 as [|a r1 IH]; intros [|b r2] H1 H2 E; inversion E; subst; simpl in *.
  - auto.
  - destruct H2; auto.
  - destruct H1; auto.
  - destruct (IH r2) as [-> ->]; auto.
Qed.

(* not before this point: Cpu.prod_list would hide Layout.prod_list *)
From QV Require Import Fl Cell Machine Cpu ListIndex.

Lemma setZ_none {A} (l : list A) i a :
  Z.of_nat (length l) <= i -> setZ l i a = None.
Proof.
  intro H. unfold setZ. assert (E : (i <? 0) = false) by lia. rewrite E, E. simpl.
  destruct (Z.geb_spec i (Z.of_nat (length l))); [reflexivity | lia].
Qed.

Definition cellat (h : list seg) (g i : nat) : option (option cell) :=
  match nth_error h g with Some sg => nth_error (s_cells sg) i | None => None end.

Definition upd_heap (h : list seg) (g j : nat) (c : option cell) : list seg :=
  match nth_error h g with
  | Some sg => set_nth h g (mkSeg (set_nth (s_cells sg) j c) (s_kind sg))
  | None => h
  end.

Lemma nth_error_upd_heap h g j c g' :
  nth_error (upd_heap h g j c) g'
  = if Nat.eq_dec g g'
    then option_map (fun sg => mkSeg (set_nth (s_cells sg) j c) (s_kind sg)) (nth_error h g')
    else nth_error h g'.
Proof.
  unfold upd_heap. destruct (Nat.eq_dec g g') as [<-|Hne].
  - destruct (nth_error h g) eqn:Hg; [|now rewrite Hg].
    apply nth_error_set_nth_eq, nth_error_Some. congruence.
  - destruct (nth_error h g); [now apply nth_error_set_nth_neq | reflexivity].
Qed.

Lemma upd_heap_length h g j c : length (upd_heap h g j c) = length h.
Proof. unfold upd_heap. destruct (nth_error h g); [apply set_nth_length | reflexivity]. Qed.

(* C04_read_over_write, the frame lemma about seg_set / set_nth: after the cell
   (g, j) is written, it holds the value (cellat_upd_same) and EVERY other cell
   of EVERY segment is unchanged (cellat_upd_other) *)
Lemma cellat_upd_same h g j c sg :
  nth_error h g = Some sg -> (j < length (s_cells sg))%nat ->
  cellat (upd_heap h g j c) g j = Some c.
Proof.
  intros Hg Hj. unfold cellat. rewrite nth_error_upd_heap, Hg.
  destruct (Nat.eq_dec g g); [now apply nth_error_set_nth_eq | congruence].
Qed.

Lemma cellat_upd_other h g j c g' j' :
  (g', j') <> (g, j) -> cellat (upd_heap h g j c) g' j' = cellat h g' j'.
Proof.
  intro Hne. unfold cellat. rewrite nth_error_upd_heap.
  destruct (Nat.eq_dec g g') as [<-|]; [|reflexivity].
  destruct (nth_error h g); [|reflexivity]. apply nth_error_set_nth_neq. congruence.
Qed.

Lemma upd_heap_shape h g j c g' :
  option_map (fun sg => (length (s_cells sg), s_kind sg)) (nth_error (upd_heap h g j c) g')
  = option_map (fun sg => (length (s_cells sg), s_kind sg)) (nth_error h g').
Proof.
  rewrite nth_error_upd_heap. destruct (Nat.eq_dec g g'); [|reflexivity].
  destruct (nth_error h g'); [|reflexivity]. simpl. now rewrite set_nth_length.
Qed.

Definition with_hs (s : st) (h : list seg) (stk : list cell) : st := set_stack (set_heap s h) stk.

Definition scope_ok (local_ : bool) (s : st) (g : Z) : Prop :=
  if local_ then cur s = Some g else g = 0.

Lemma bind_R {A B} {m : M A} {f : A -> M B} {s a s'} : m s = R a s' -> bind m f s = f a s'.
Proof. intro H. unfold bind. now rewrite H. Qed.

Lemma pop_ok {s v r} : stack s = v :: r -> pop s = R v (set_stack s r).
Proof. intro H. unfold pop. now rewrite H. Qed.

Lemma pop_ref_ok {s g i r} : stack s = CRef g i :: r -> pop_ref s = R (g, i) (set_stack s r).
Proof. intro H. unfold pop_ref, pop_ty, pop, bind. now rewrite H. Qed.

Lemma pop_long_ok {s z r} : stack s = CL z :: r -> pop_long s = R z (set_stack s r).
Proof. intro H. unfold pop_long, pop_ty, pop, bind. now rewrite H. Qed.

Lemma scope_seg_ok {l s g} : scope_ok l s g -> scope_seg l s = R g s.
Proof.
  destruct l; simpl; intro H; [unfold cur_frame; now rewrite H | now subst].
Qed.

Lemma get_seg_ok {g s sg} :
  0 <= g -> nth_error (heap s) (Z.to_nat g) = Some sg -> get_seg g s = R sg s.
Proof. intros Hg Hs. unfold get_seg. now rewrite nthZ_nat, Hs. Qed.

Lemma seg_get_ok {g i s sg c} :
  0 <= g -> nth_error (heap s) (Z.to_nat g) = Some sg -> 0 <= i ->
  nth_error (s_cells sg) (Z.to_nat i) = Some c -> seg_get g i s = R c s.
Proof.
  intros Hg Hs Hi Hc. unfold seg_get. rewrite (bind_R (get_seg_ok Hg Hs)). now rewrite nthZ_nat, Hc.
Qed.

(* reading a LONG: seg_get, then cell_val_Z *)
Lemma seg_get_long_ok {B g i s sg z} (f : Z -> M B) :
  0 <= g -> nth_error (heap s) (Z.to_nat g) = Some sg -> 0 <= i ->
  nth_error (s_cells sg) (Z.to_nat i) = Some (Some (CL z)) ->
  (do c <- seg_get g i; do x <- cell_val_Z c; f x) s = f z s.
Proof. intros Hg Hs Hi Hc. now rewrite (bind_R (seg_get_ok Hg Hs Hi Hc)). Qed.

Lemma seg_set_ok {g i c s sg} :
  0 <= g -> nth_error (heap s) (Z.to_nat g) = Some sg ->
  0 <= i < Z.of_nat (length (s_cells sg)) ->
  seg_set g i c s = R tt (set_heap s (upd_heap (heap s) (Z.to_nat g) (Z.to_nat i) c)).
Proof.
  intros Hg Hs Hi. unfold seg_set. rewrite (bind_R (get_seg_ok Hg Hs)).
  rewrite !setZ_nat by eauto using nth_error_Z_lt. unfold upd_heap. now rewrite Hs.
Qed.

Lemma read_var_ok l i s g sg :
  scope_ok l s g -> 0 <= g -> nth_error (heap s) (Z.to_nat g) = Some sg -> 0 <= i ->
  read_var l i s = match nth_error (s_cells sg) (Z.to_nat i) with
                   | Some c => R c s
                   | None => T T_INVALID_VAR_IDX true s
                   end.
Proof.
  intros Hsc Hg Hs Hi. unfold read_var.
  rewrite (bind_R (scope_seg_ok Hsc)), (bind_R (get_seg_ok Hg Hs)), nthZ_nat by assumption.
  destruct (nth_error (s_cells sg) (Z.to_nat i)); reflexivity.
Qed.

Lemma write_var_ok {l i c s g sg} :
  scope_ok l s g -> 0 <= g -> nth_error (heap s) (Z.to_nat g) = Some sg ->
  0 <= i < Z.of_nat (length (s_cells sg)) ->
  write_var l i c s = R tt (set_heap s (upd_heap (heap s) (Z.to_nat g) (Z.to_nat i) (Some c))).
Proof.
  intros Hsc Hg Hs Hi. unfold write_var.
  rewrite (bind_R (scope_seg_ok Hsc)), (bind_R (get_seg_ok Hg Hs)), setZ_nat by assumption.
  exact (seg_set_ok Hg Hs Hi).
Qed.

(* store and storeidx are: pop, then write_var *)
Lemma pop_write_ok l i v rest s g sg :
  stack s = v :: rest -> scope_ok l s g -> 0 <= g ->
  nth_error (heap s) (Z.to_nat g) = Some sg -> 0 <= i < Z.of_nat (length (s_cells sg)) ->
  (do v <- pop; write_var l i v) s
  = R tt (with_hs s (upd_heap (heap s) (Z.to_nat g) (Z.to_nat i) (Some v)) rest).
Proof.
  intros Hst Hsc Hg Hs Hi. rewrite (bind_R (pop_ok Hst)).
  exact (write_var_ok (s := set_stack s rest) Hsc Hg Hs Hi).
Qed.

Lemma read_generic_ok l ty i s g sg oc :
  (ty =? 7) = false -> scope_ok l s g -> 0 <= g ->
  nth_error (heap s) (Z.to_nat g) = Some sg -> 0 <= i ->
  nth_error (s_cells sg) (Z.to_nat i) = Some oc ->
  read_generic l ty i i s
  = match oc with
    | Some c => R tt (set_stack s (c :: stack s))
    | None => R tt (with_hs s (upd_heap (heap s) (Z.to_nat g) (Z.to_nat i) (Some (default_cell ty)))
                            (default_cell ty :: stack s))
    end.
Proof.
  intros Hty Hsc Hg Hs Hi Hc. unfold read_generic. rewrite Hty.
  unfold bind at 1. rewrite (read_var_ok l i s g sg), Hc by assumption.
  destruct oc as [c|]; [reflexivity|].
  now rewrite (bind_R (write_var_ok Hsc Hg Hs (nth_error_Z_lt _ _ _ Hi Hc))).
Qed.

Theorem read_set_pure m l ty i s g sg c :
  (ty =? 7) = false -> scope_ok l s g -> 0 <= g ->
  nth_error (heap s) (Z.to_nat g) = Some sg -> 0 <= i ->
  nth_error (s_cells sg) (Z.to_nat i) = Some (Some c) ->
  exec m (IRead l ty i) s = R tt (set_stack s (c :: stack s)).
Proof. exact (read_generic_ok l ty i s g sg (Some c)). Qed.

(* the repaired instruction: write_var(scope, var + idx, value) *)
Definition exec_readidx_fixed (l : bool) (ty v i : Z) : M unit :=
  if ty =? 7 then crashM CrAssert else read_generic l ty (v + i) (v + i).

Theorem readidx_set_pure m l ty v i s g sg c :
  (ty =? 7) = false -> scope_ok l s g -> 0 <= g ->
  nth_error (heap s) (Z.to_nat g) = Some sg -> 0 <= v + i ->
  nth_error (s_cells sg) (Z.to_nat (v + i)) = Some (Some c) ->
  exec m (IReadidx l ty v i) s = R tt (set_stack s (c :: stack s)).
Proof.
  intro Hty. cbv beta iota delta [exec]. rewrite Hty.
  exact (read_generic_ok l ty (v + i) s g sg (Some c) Hty).
Qed.

Lemma deref_ok m ty g i rest s sg oc :
  stack s = CRef g i :: rest -> 0 <= g -> nth_error (heap s) (Z.to_nat g) = Some sg -> 0 <= i ->
  nth_error (s_cells sg) (Z.to_nat i) = Some oc ->
  exec m (IDeref ty) s
  = match oc with
    | Some c => R tt (set_stack s (c :: rest))
    | None => R tt (with_hs s (upd_heap (heap s) (Z.to_nat g) (Z.to_nat i) (Some (default_cell ty)))
                            (default_cell ty :: rest))
    end.
Proof.
  intros Hst Hg Hs Hi Hc. cbv beta iota delta [exec]. rewrite (bind_R (pop_ref_ok Hst)). cbv beta iota.
  rewrite (bind_R (seg_get_ok (s := set_stack s rest) Hg Hs Hi Hc)).
  destruct oc as [c|]; [reflexivity|].
  now rewrite (bind_R (seg_set_ok (s := set_stack s rest) Hg Hs (nth_error_Z_lt _ _ _ Hi Hc))).
Qed.

Theorem deref_set_pure m ty g i rest s sg c :
  stack s = CRef g i :: rest -> 0 <= g -> nth_error (heap s) (Z.to_nat g) = Some sg -> 0 <= i ->
  nth_error (s_cells sg) (Z.to_nat i) = Some (Some c) ->
  exec m (IDeref ty) s = R tt (set_stack s (c :: rest)).
Proof. exact (deref_ok m ty g i rest s sg (Some c)). Qed.

Theorem pushrefg_ok m i s : exec m (IPushrefg i) s = R tt (set_stack s (CRef 0 i :: stack s)).
Proof. reflexivity. Qed.

(* what `frame` does with the popped arguments: parameter k-1 is popped
   first; a reference is stored as it is, any other value is appended to the
   NEW frame as a temporary and the parameter refers to that temporary *)
Fixpoint bind_args (g : Z) (k : nat) (stk : list cell) (cells : list (option cell))
  : option (list (option cell) * list cell) :=
  match k with
  | O => Some (cells, stk)
  | S k' =>
    match stk with
    | [] => None
    | v :: r =>
      match v with
      | CRef _ _ => bind_args g k' r (set_nth cells k' (Some v))
      | _ => bind_args g k' r
               (set_nth (cells ++ [Some v]) k' (Some (CRef g (Z.of_nat (length cells)))))
      end
    end
  end.

Definition bind_arg (g : Z) (k : nat) (v : cell) (cells : list (option cell)) : list (option cell) :=
  if cell_ty v =? 7 then set_nth cells k (Some v)
  else set_nth (cells ++ [Some v]) k (Some (CRef g (Z.of_nat (length cells)))).

Lemma bind_args_S g k v r cells :
  bind_args g (S k) (v :: r) cells = bind_args g k r (bind_arg g k v cells).
Proof. destruct v; reflexivity. Qed.

Lemma bind_arg_length g k v cells : (length cells <= length (bind_arg g k v cells))%nat.
Proof. unfold bind_arg. destruct (_ =? _); rewrite set_nth_length, ?app_length; lia. Qed.

(* the case split of bind_args and of the instruction, as the test of bind_arg *)
Lemma ref_match {A} (v : cell) (a b : A) :
  match v with CRef _ _ => a | _ => b end = if cell_ty v =? 7 then a else b.
Proof. destruct v; reflexivity. Qed.

Lemma bind_args_total g k : forall stk cells,
  (k <= length stk)%nat -> exists cells' stk', bind_args g k stk cells = Some (cells', stk').
Proof.
  induction k as [|k IH]; intros stk cells Hk.
  - simpl. eauto.
  - destruct stk as [|v r]; [simpl in Hk; lia|]. rewrite bind_args_S. apply IH. simpl in Hk. lia.
Qed.

(* what bind_args produces; temporaries lie at or after [lo] *)
Lemma bind_args_spec g lo k : forall stk cells cells' stk',
  bind_args g k stk cells = Some (cells', stk') -> (k <= length cells)%nat -> (lo <= length cells)%nat ->
  exists vals,
    length vals = k /\ stk = rev vals ++ stk' /\
    (length cells <= length cells')%nat /\
    (forall j, (k <= j < length cells)%nat -> nth_error cells' j = nth_error cells j) /\
    (forall j a, nth_error vals j = Some a ->
       match a with
       | CRef _ _ => nth_error cells' j = Some (Some a)
       | _ => exists n, (lo <= n)%nat /\
                        nth_error cells' j = Some (Some (CRef g (Z.of_nat n))) /\
                        nth_error cells' n = Some (Some a)
       end).
Proof.
  induction k as [|k IH]; intros stk cells cells' stk' Hb Hk Hlo.
  - injection Hb as <- <-. exists []. repeat split; auto. intros [|j] a Hj; discriminate.
  - destruct stk as [|v r]; [discriminate|]. rewrite bind_args_S in Hb.
    pose proof (bind_arg_length g k v cells) as Hl1.
    destruct (IH _ _ _ _ Hb) as (vals & Hlen & Hstk & Hle & Hun & Hpar); [lia.. | ].
    exists (vals ++ [v]). repeat split.
    + rewrite app_length. simpl. lia.
    + rewrite rev_app_distr. simpl. now rewrite Hstk.
    + lia.
    + intros j Hj. rewrite Hun by lia. unfold bind_arg.
      destruct (_ =? _); rewrite nth_error_set_nth_neq, ?nth_error_app1 by lia; reflexivity.
    + intros j a Hj. destruct (Nat.lt_ge_cases j k).
      { rewrite nth_error_app1 in Hj by lia. exact (Hpar j a Hj). }
      (* j = k and a = v: later steps keep parameter k and the temporary it refers to *)
      rewrite ref_match. clear Hpar IH.
      rewrite nth_error_app2, Hlen in Hj by lia.
      destruct (j - k)%nat as [|[|d]] eqn:Hd; inversion Hj. subst a. replace j with k by lia.
      unfold bind_arg in Hun. destruct (cell_ty v =? 7).
      * rewrite Hun by (rewrite set_nth_length; lia). apply nth_error_set_nth_eq. lia.
      * exists (length cells). rewrite !Hun by (rewrite set_nth_length, app_length; simpl; lia).
        rewrite nth_error_set_nth_eq, nth_error_set_nth_neq, nth_error_app_last
          by (rewrite ?app_length; simpl; lia).
        auto.
Qed.

(* bind_temp and frame_loop, and below pop_longs, bounds_loop and idx_loop, copy the anonymous
   loops in the IFrame case of Cpu.exec and in Cpu.exec_arridx so that lemmas can speak of them.
   frame_ok and arridx_ok rewrite with those lemmas only because copy and original are
   convertible: a change to the loops in Cpu.v has to be repeated here. *)

(* set_temp_reference: a temporary holding v is appended to segment g and
   cell idx is made to refer to it *)
Definition bind_temp (g idx : Z) (v : cell) : M unit :=
  do sg <- get_seg g;
  (fun s => match setZ (heap s) g (mkSeg (s_cells sg ++ [Some v]) (s_kind sg)) with
            | Some h => R tt (set_heap s h)
            | None => X CrAssert s
            end);;
  seg_set g idx (Some (CRef g (Z.of_nat (length (s_cells sg))))).

(* the loop of _exec_frame *)
Definition frame_loop (g : Z) : nat -> M unit :=
  fix go (k : nat) : M unit :=
    match k with
    | O => ret tt
    | S k' =>
      do v <- pop;
      (match v with
       | CRef _ _ => seg_set g (Z.of_nat k') (Some v)
       | _ => bind_temp g (Z.of_nat k') v
       end);;
      go k'
    end.

(* while the loop runs the new frame is the last segment of the heap *)
Lemma seg_set_last {g i c s H cells kind} :
  heap s = H ++ [mkSeg cells kind] -> g = Z.of_nat (length H) -> (i < length cells)%nat ->
  seg_set g (Z.of_nat i) c s = R tt (set_heap s (H ++ [mkSeg (set_nth cells i c) kind])).
Proof.
  intros Hh -> Hi.
  rewrite (seg_set_ok (sg := mkSeg cells kind)); [ | lia | | simpl; lia].
  - unfold upd_heap. now rewrite Hh, !Nat2Z.id, nth_error_app_last, set_nth_app_last.
  - rewrite Hh, Nat2Z.id. apply nth_error_app_last.
Qed.

Lemma bind_temp_last {g i v s H cells kind} :
  heap s = H ++ [mkSeg cells kind] -> g = Z.of_nat (length H) -> (i < length cells)%nat ->
  bind_temp g (Z.of_nat i) v s
  = R tt (set_heap s (H ++ [mkSeg (set_nth (cells ++ [Some v]) i
                                     (Some (CRef g (Z.of_nat (length cells))))) kind])).
Proof.
  intros Hh -> Hi. unfold bind_temp.
  rewrite (bind_R (get_seg_ok (sg := mkSeg cells kind) (Nat2Z.is_nonneg _)
                     ltac:(rewrite Hh, Nat2Z.id; apply nth_error_app_last))).
  unfold bind at 1. rewrite Hh, setZ_nat by (rewrite app_length; simpl; lia).
  rewrite Nat2Z.id, set_nth_app_last. simpl s_cells. simpl s_kind.
  assert (Hi' : (i < length (cells ++ [Some v]))%nat) by (rewrite app_length; lia).
  exact (seg_set_last (s := set_heap s _) eq_refl eq_refl Hi').
Qed.

Lemma frame_loop_ok g H kind cells' stk' : g = Z.of_nat (length H) ->
  forall k s cells,
  heap s = H ++ [mkSeg cells kind] -> (k <= length cells)%nat ->
  bind_args g k (stack s) cells = Some (cells', stk') ->
  frame_loop g k s = R tt (with_hs s (H ++ [mkSeg cells' kind]) stk').
Proof.
  intro Hg. induction k as [|k IH]; intros s cells Hh Hk Hb.
  - injection Hb as <- <-. rewrite <- Hh. destruct s; reflexivity.
  - destruct (stack s) as [|v r] eqn:Hst; [discriminate|]. rewrite bind_args_S in Hb.
    assert (Hk' : (k <= length (bind_arg g k v cells))%nat) by (pose proof (bind_arg_length g k v cells); lia).
    cbn [frame_loop]. rewrite (bind_R (pop_ok Hst)), ref_match.
    (* one step leaves the cells bind_arg g k v cells, then the rest of the loop *)
    unfold bind_arg in Hk', Hb. destruct (cell_ty v =? 7).
    1: rewrite (bind_R (seg_set_last (s := set_stack s r) Hh Hg Hk)).
    2: rewrite (bind_R (bind_temp_last (s := set_stack s r) Hh Hg Hk)).
    all: exact (IH (with_hs s _ r) _ eq_refl Hk' Hb).
Qed.

(* C04_frame_fresh *)
Theorem frame_ok m p l s ret_addr stk cells' stk' :
  stack s = CL ret_addr :: stk -> 0 <= p -> 0 <= l -> in_long ret_addr = true ->
  bind_args (Z.of_nat (length (heap s))) (Z.to_nat p) stk (repeat None (Z.to_nat (p + l)))
    = Some (cells', stk') ->
  exec m (IFrame p l) s
  = R tt (set_cur (with_hs s (heap s ++ [mkSeg cells' (SFrame (cur s) (pc s) ret_addr (p + l))])
                          (CL ret_addr :: stk'))
                  (Some (Z.of_nat (length (heap s))))).
Proof.
  intros Hst Hp Hl Hra Hb. cbv beta iota delta [exec].
  rewrite (bind_R (pop_long_ok Hst)). unfold get, alloc_seg, modify. unfold bind at 1 2 3.
  (* the loop of the instruction is frame_loop, and the frame just allocated is the last segment *)
  erewrite bind_R.
  2: { eapply (frame_loop_ok _ (heap s));
       [reflexivity | reflexivity | rewrite repeat_length; lia | exact Hb]. }
  unfold push, mk_cell, bind. now rewrite Hra.
Qed.

(* the three loops of _exec_arridx *)
Definition pop_longs : nat -> list Z -> M (list Z) :=
  fix go (k : nat) (acc : list Z) : M (list Z) :=
    match k with
    | O => ret acc
    | S k' => do z <- pop_long; go k' (acc ++ [z])
    end.

Definition bounds_loop (g : Z) : list Z -> Z -> list (Z * Z) -> M (list (Z * Z) * Z) :=
  fix go (l : list Z) (b : Z) (acc : list (Z * Z)) : M (list (Z * Z) * Z) :=
    match l with
    | [] => ret (acc, b)
    | i :: r =>
      do cl <- seg_get g b; do lb <- cell_val_Z cl;
      do cu <- seg_get g (b + 1); do ub <- cell_val_Z cu;
      if (i <? lb) || (i >? ub) then trap T_INDEX_OUT_OF_RANGE
      else go r (b + 2) (acc ++ [(lb, ub)])
    end.

Definition idx_loop (es : Z) : list Z -> list (Z * Z) -> list Z -> Z -> Z :=
  fix go (l : list Z) (bs : list (Z * Z)) (ds : list Z) (acc : Z) : Z :=
    match l, bs, ds with
    | i :: l', (lb, _) :: bs', _ :: ds' => go l' bs' ds' (acc + Cpu.prod_list ds' * es * (i - lb))
    | _, _, _ => acc
    end.

Lemma pop_longs_ok l : forall acc s rest,
  stack s = map CL l ++ rest ->
  pop_longs (length l) acc s = R (acc ++ l) (set_stack s rest).
Proof.
  induction l as [|z l IH]; intros acc s rest Hst; simpl in *.
  - unfold ret. rewrite app_nil_r. subst rest. destruct s; reflexivity.
  - rewrite (bind_R (pop_long_ok Hst)).
    rewrite (IH (acc ++ [z]) (set_stack s (map CL l ++ rest)) rest eq_refl), <- app_assoc. reflexivity.
Qed.

(* the header written by initarr* / Array.__init__ at [base] *)
Definition has_header (cells : list (option cell)) (base es : Z) (bs : list (Z * Z)) : Prop :=
  nth_error cells (Z.to_nat (base + 1)) = Some (Some (CL (rank bs))) /\
  nth_error cells (Z.to_nat (base + 2)) = Some (Some (CL es)) /\
  forall k lb ub, nth_error bs k = Some (lb, ub) ->
    nth_error cells (Z.to_nat (base + 3 + 2 * Z.of_nat k)) = Some (Some (CL lb)) /\
    nth_error cells (Z.to_nat (base + 3 + 2 * Z.of_nat k + 1)) = Some (Some (CL ub)).

Lemma bounds_loop_ok g s sg : 0 <= g -> nth_error (heap s) (Z.to_nat g) = Some sg ->
  forall bs l b acc num,
  (forall k lb ub, nth_error bs k = Some (lb, ub) ->
     nth_error (s_cells sg) (Z.to_nat (b + 2 * Z.of_nat k)) = Some (Some (CL lb)) /\
     nth_error (s_cells sg) (Z.to_nat (b + 2 * Z.of_nat k + 1)) = Some (Some (CL ub))) ->
  0 <= b -> elem_number bs l = Some num ->
  bounds_loop g l b acc s = R (acc ++ bs, b + 2 * rank bs) s.
Proof.
  intros Hg Hs. unfold rank.
  induction bs as [|[lb ub] bs IH]; intros [|i l] b acc num Hh Hb Hn; try discriminate.
  - simpl. unfold ret. now rewrite app_nil_r, Z.add_0_r.
  - destruct (Hh 0%nat lb ub eq_refl) as [H1 H2]. simpl in H1, H2. rewrite Z.add_0_r in H1, H2.
    cbn [bounds_loop].
    rewrite (seg_get_long_ok _ Hg Hs Hb H1), (seg_get_long_ok (i := b + 1) _ Hg Hs ltac:(lia) H2).
    (* the test of the instruction is the test of elem_number *)
    cbn [elem_number] in Hn. destruct ((i <? lb) || (i >? ub)); [discriminate Hn|].
    destruct (elem_number bs l) as [r|] eqn:Er; [|discriminate Hn].
    rewrite (IH l (b + 2) (acc ++ [(lb, ub)]) r); [ | | lia | exact Er].
    + rewrite <- app_assoc. cbn [length]. do 2 f_equal. lia.
    + intros k lb' ub' Hk. specialize (Hh (S k) lb' ub' Hk).
      replace (b + 2 + 2 * Z.of_nat k) with (b + 2 * Z.of_nat (S k)) by lia. exact Hh.
Qed.

Lemma cpu_prod_list l : Cpu.prod_list l = Layout.prod_list l.
Proof. induction l; simpl; congruence. Qed.

Lemma idx_loop_spec es bs : forall l acc,
  idx_loop es l bs (map (fun '(lb, ub) => ub - lb + 1) bs) acc = arridx_acc es l bs acc.
Proof.
  induction bs as [|[lb ub] bs IH]; intros [|i l] acc; simpl; try reflexivity.
  rewrite IH, cpu_prod_list. unfold dims.
  now rewrite (map_ext _ (fun b => snd b - fst b + 1)) by (intros []; reflexivity).
Qed.

(* C04_arridx_in_segment, machine part: on an array whose header is at [base] of
   segment g, arridx with in-range indices returns the reference
   (g, elem_index base es bounds idxs) *)
Theorem arridx_ok m g base es bs idxs rest s sg c :
  stack s = CRef g base :: map CL (rev idxs) ++ rest ->
  0 <= g -> 0 <= base -> nth_error (heap s) (Z.to_nat g) = Some sg ->
  has_header (s_cells sg) base es bs ->
  elem_index base es bs idxs = Some c ->
  exec m (IArridx (rank bs)) s = R tt (set_stack s (CRef g c :: rest)).
Proof.
  intros Hst Hg Hb Hs (H1 & H2 & H3) He. apply elem_index_Some in He as (num & En & ->).
  cbv beta iota delta [exec exec_arridx].
  rewrite (bind_R (pop_ref_ok Hst)). cbv beta iota.
  (* the three loops of the instruction are pop_longs, bounds_loop and idx_loop *)
  replace (Z.to_nat (rank bs)) with (length (rev idxs))
    by (unfold rank; rewrite rev_length, (elem_number_length _ _ _ En); lia).
  rewrite (bind_R (pop_longs_ok (rev idxs) [] (set_stack s (map CL (rev idxs) ++ rest)) rest eq_refl)).
  set (s1 := set_stack _ rest). change (nth_error (heap s1) (Z.to_nat g) = Some sg) in Hs. cbn [app].
  rewrite (seg_get_long_ok (i := base + 1) _ Hg Hs ltac:(lia) H1), Z.eqb_refl. erewrite bind_R by reflexivity.
  rewrite (seg_get_long_ok (i := base + 2) _ Hg Hs ltac:(lia) H2).
  rewrite rev_involutive.
  rewrite (bind_R (bounds_loop_ok g s1 sg Hg Hs bs idxs (base + 3) [] num H3 ltac:(lia) En)).
  cbv beta iota zeta. cbn [app]. fold (idx_loop es).
  rewrite idx_loop_spec, (arridx_acc_spec _ _ _ _ _ En).
  replace (base + 3 + 2 * rank bs + num * es) with (base + header_size bs + num * es)
    by (unfold header_size; lia).
  reflexivity.
Qed.
