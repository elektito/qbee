(* The lookup as the machine model uses it (Models/Cpu.v find_stmt, a left fold
   over (start, end) pairs, used by RESUME / RESUME NEXT) is the lookup of
   Models/DebugMap.v (filter, stable sort by size, head). *)
From Coq Require Import ZArith List Bool Lia.
From QV Require Import DebugMap DebugMapProofs Cpu.
Import ListNotations.
Open Scope Z_scope.

Definition rng (r : rec) : Z * Z := (r_start r, r_end r).

(* the better of the best range so far and a record containing addr: the
   smaller one, the earlier one on a tie *)
Definition better (best : option (Z * Z)) (x : rec) : option (Z * Z) :=
  match best with
  | Some (a', b') => if rsize x <? b' - a' then Some (rng x) else best
  | None => Some (rng x)
  end.

Definition fstep (addr : Z) (best : option (Z * Z)) (p : Z * Z) : option (Z * Z) :=
  let '(a, b) := p in
  if (a <=? addr) && (addr <? b) then
    match best with
    | Some (a', b') => if b - a <? b' - a' then Some (a, b) else best
    | None => Some (a, b)
    end
  else best.

Lemma cpu_find_stmt_fold stmts addr :
  Cpu.find_stmt stmts addr = fold_left (fstep addr) stmts None.
Proof. reflexivity. Qed.

Lemma fstep_rng addr best x :
  fstep addr best (rng x) = if contains addr x then better best x else best.
Proof. reflexivity. Qed.

(* the fold keeps the first smallest record seen so far; the stable sort finds
   the first smallest one of the rest: the better of the two is the answer *)
Lemma fold_merge addr l : forall best,
  fold_left (fstep addr) (map rng l) best =
  match hd_error (sort_by rsize (filter (contains addr) l)) with
  | Some m => better best m
  | None => best
  end.
Proof.
  induction l as [|x l IH]; intros best; [reflexivity|].
  cbn [map fold_left filter]. rewrite IH, fstep_rng.
  destruct (contains addr x); [|reflexivity].
  rewrite sort_by_hd.
  destruct (hd_error (sort_by rsize (filter (contains addr) l))) as [m|]; [|reflexivity].
  destruct best as [[a' b']|]; unfold better, rng, rsize; simpl;
    repeat match goal with
           | |- context [?u <? ?v] => destruct (Z.ltb_spec u v)
           | |- context [?u <=? ?v] => destruct (Z.leb_spec u v)
           end; try reflexivity; exfalso; lia.
Qed.
