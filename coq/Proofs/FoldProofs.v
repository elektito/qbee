(* Lemmas about Models/Fold.v.  The machine side is common to both folders: a
   piece of generated code is described by the cells it takes from and leaves on
   the stack ([steps]), each operator instruction computes [raw_op] on two cells
   of the operand type and stores what [checked] lets through.  From that: the
   folder as it is (sound on integer literals where its range test implies the
   machine's, refuted elsewhere) and the folder after fixes/C02-fold.diff (sound). *)
From Coq Require Import ZArith List Bool Lia ZifyBool.
From QV Require Import Sx Strs Fl NumFmt Cell Machine Cpu Fold ExpShortcut ListIndex.
Import ListNotations.
Open Scope Z_scope.

Definition st_push (s : st) (c : cell) : st := set_stack s (c :: stack s).

Lemma stack_set_stack s l : stack (set_stack s l) = l.
Proof. reflexivity. Qed.

Lemma set_stack_set_stack s l l' : set_stack (set_stack s l) l' = set_stack s l'.
Proof. reflexivity. Qed.

Lemma push_cell_eq c s : push_cell c s = R tt (st_push s c).
Proof. reflexivity. Qed.

Lemma pop_cons s c r : stack s = c :: r -> pop s = R c (set_stack s r).
Proof. intros H. unfold pop. rewrite H. reflexivity. Qed.

Lemma run_instrs_app m a b s :
  run_instrs m (a ++ b) s = (run_instrs m a ;; run_instrs m b) s.
Proof.
  revert s. induction a as [|i a IH]; intros s; simpl.
  - reflexivity.
  - unfold bind. destruct (exec m i s); try reflexivity. apply IH.
Qed.

Definition steps (m : module) (l : list instr) (pre post : list cell) : Prop :=
  forall s st0, run_instrs m l (set_stack s (pre ++ st0)) = R tt (set_stack s (post ++ st0)).

Lemma steps_nil m a : steps m [] a a.
Proof. intros s st0. reflexivity. Qed.

Lemma steps_app {m l1 l2 a b c} : steps m l1 a b -> steps m l2 b c -> steps m (l1 ++ l2) a c.
Proof.
  intros H1 H2 s st0. rewrite run_instrs_app. unfold bind. rewrite H1. apply H2.
Qed.

Lemma steps_frame {m l a b} r : steps m l a b -> steps m l (a ++ r) (b ++ r).
Proof. intros H s st0. rewrite <- !app_assoc. apply H. Qed.

Lemma steps_one m i a b :
  (forall s st0, exec m i (set_stack s (a ++ st0)) = R tt (set_stack s (b ++ st0))) ->
  steps m [i] a b.
Proof. intros H s st0. cbn [run_instrs]. unfold bind. rewrite H. reflexivity. Qed.

(* what rt_eval, rt_bound and rt_eval_fixed read off the final state *)
Definition rres_of (o : out unit) : rres :=
  match o with
  | R _ s => match stack s with [c] => RVal c | _ => RBadStack end
  | T code _ _ => RTrap code
  | ZD _ => RTrap T_DIVISION_BY_ZERO
  | X CrPowUnknown _ => RUnmodelled
  | X k _ => RCrash k
  | NI _ => RBadStack
  end.

Lemma rres_steps m l c : steps m l [] [c] ->
  rres_of (run_instrs m l (init_state m empty_script)) = RVal c.
Proof.
  intros H.
  change (init_state m empty_script) with (set_stack (init_state m empty_script) ([] ++ [])).
  rewrite H. reflexivity.
Qed.

Definition in_ty (ty z : Z) : bool := if ty =? 1 then in_int z else in_long z.
Definition cell_i (ty z : Z) : cell := if ty =? 1 then CI z else CL z.

Lemma in_long_iff z : in_long z = true <-> - 2 ^ 31 <= z < 2 ^ 31.
Proof. unfold in_long. lia. Qed.
Lemma in_int_iff z : in_int z = true <-> - 2 ^ 15 <= z < 2 ^ 15.
Proof. unfold in_int. lia. Qed.

(* the range test of the folder: ctypes.c_short, and c_long, which is 64 bits wide *)
Definition wrapok (ty x : Z) : bool := if ty =? 1 then wrap 16 x =? x else wrap 64 x =? x.

Lemma wrap16_in_int x : wrapok 1 x = in_int x.
Proof. change (wrapok 1 x) with (wrap 16 x =? x). unfold wrap, in_int. Z.to_euclidean_division_equations. lia. Qed.

Lemma wrap64_long x : - 2 ^ 63 <= x < 2 ^ 63 -> wrapok 2 x = true.
Proof. intros H. apply Z.eqb_eq. unfold wrap. rewrite Z.mod_small; lia. Qed.

Local Opaque in_int in_long wrap.

(* [cell_of_val ty v = Some c], as cases *)
Inductive holds : Z -> pyval -> cell -> Prop :=
| HoldsI z : holds 1 (PInt z) (CI z)
| HoldsL z : holds 2 (PInt z) (CL z)
| HoldsS f : holds 3 (PFlt f) (CS f)
| HoldsD f : holds 4 (PFlt f) (CD f)
| HoldsStr t : holds 5 (PStrV t) (CStr t).

(* the five types, by the shape of the binary numeral *)
Lemma ty_cases ty :
  ty = 1 \/ ty = 2 \/ ty = 3 \/ ty = 4 \/ ty = 5 \/
  (forall v, cell_of_val ty v = None /\ checked ty v = None).
Proof.
  destruct ty as [|[[[]|[]|]|[[]|[]|]|]|]; first [do 5 right; split; reflexivity | auto 6].
Qed.

Lemma cell_of_val_holds ty v c : cell_of_val ty v = Some c -> holds ty v c.
Proof.
  intros H.
  destruct (ty_cases ty) as [->|[->|[->|[->|[->|Hn]]]]]; [..| rewrite (proj1 (Hn v)) in H; discriminate];
    destruct v; try discriminate H; inversion H; constructor.
Qed.

Lemma is_num_cases ty : is_num ty = true -> ty = 1 \/ ty = 2 \/ ty = 3 \/ ty = 4.
Proof. unfold is_num. lia. Qed.

Definition neg_zero : fl := FFin true 0 0.

(* the Python type NumericLiteral gives the value of a literal of type [ty] *)
Definition py_typed (ty : Z) (v : pyval) : Prop :=
  match v with
  | PInt _ => ty = 1 \/ ty = 2
  | PFlt _ => ty = 3 \/ ty = 4
  | PStrV _ => False
  end.

Lemma py_type_conv_typed ty v v' : py_type_conv ty v = FVal v' -> py_typed ty v'.
Proof.
  intros H. unfold py_type_conv in H.
  destruct ((ty =? 1) || (ty =? 2)) eqn:E12; [| destruct ((ty =? 3) || (ty =? 4)) eqn:E34; [|discriminate H]].
  - assert (Hty : ty = 1 \/ ty = 2) by lia. destruct v as [z|f|t].
    + inversion H. exact Hty.
    + destruct f as [| n | n mm e]; try discriminate H. destruct (ftrunc _); inversion H. exact Hty.
    + destruct (negb (ascii t)); [discriminate H|]. destruct (py_int t); inversion H. exact Hty.
  - assert (Hty : ty = 3 \/ ty = 4) by lia. destruct v as [z|f|t].
    + destruct (of_Z_opt z); inversion H. exact Hty.
    + inversion H. exact Hty.
    + destruct (negb (ascii t)); [discriminate H|]. destruct (py_float t); inversion H. exact Hty.
Qed.

(* push0 .. pushm2 load the literal they abbreviate, negative zero excepted *)
Lemma small_const_val ty v c : py_typed ty v -> small_const v = Some c -> is_neg_zero v = false ->
  (if (ty =? 3) || (ty =? 4) then PFlt (of_Z c) else PInt c) = v.
Proof.
  intros Hty Hc Hz. destruct v as [z|f|t]; [| |destruct Hty]; cbn in Hty.
  - cbn in Hc. destruct ((-2 <=? z) && (z <=? 2)); inversion Hc.
    destruct Hty as [-> | ->]; reflexivity.
  - replace ((ty =? 3) || (ty =? 4)) with true by (destruct Hty as [-> | ->]; reflexivity).
    destruct f as [| |[] [|[p|p|]|p] [|[q|q|]|q]]; try discriminate; inversion Hc; reflexivity.
Qed.

Local Opaque of_Z fcmp fround to_single.

Lemma push_checked ty v v' : checked ty v = Some v' ->
  exists c, cell_of_val ty v' = Some c /\ forall s, push ty v s = R tt (st_push s c).
Proof.
  intros H.
  enough (E : match checked ty v with
              | Some v' => exists c, cell_of_val ty v' = Some c /\ forall s, push ty v s = R tt (st_push s c)
              | None => True
              end) by (rewrite H in E; exact E).
  clear H. unfold push, bind.
  (* mk_cell makes the tests of checked.  The goals: for each numeric type an int, then
     a float; last a string.  DOUBLE and the string (7-9) hold the value untested;
     2 and 4 round a float into INTEGER and LONG *)
  destruct (ty_cases ty) as [->|[->|[->|[->|[->|Hn]]]]]; [..| rewrite (proj2 (Hn v)); exact I];
    destruct v as [z|f|t]; try exact I; cbn.
  7-9: eauto.
  2,4: destruct (fcmp (of_Z _) f) as [[]|]; try exact I;
    destruct (fcmp f (of_Z _)) as [[]|]; try exact I; (destruct (fround f); [cbn; eauto | exact I]).
  - destruct (in_int z); [eauto | exact I].
  - destruct (in_long z); [eauto | exact I].
  - destruct (to_single (of_Z z)); [cbn; eauto | exact I].
  - destruct (to_single f); [cbn; eauto | exact I].
Qed.

Lemma checked_int ty z : ty = 1 \/ ty = 2 ->
  checked ty (PInt z) = if in_ty ty z then Some (PInt z) else None.
Proof. intros [-> | ->]; reflexivity. Qed.

Lemma fx_checked_some ty v w : fx_checked ty v = FxV w -> checked ty v = Some w.
Proof. unfold fx_checked. destruct (checked ty v); intros H; inversion H; reflexivity. Qed.

Lemma fx_bind_val r k v : fx_bind r k = FxV v -> exists x, r = FxV x /\ k x = FxV v.
Proof. destruct r; try discriminate. eauto. Qed.

Lemma push_lit_exec m ty v w : py_typed ty v -> checked ty v = Some w -> is_neg_zero v = false ->
  exists i, push_lit ty v = CgOk [i] /\ forall s, exec m i s = push ty v s.
Proof.
  intros Hty Hk Hz. unfold push_lit. destruct (small_const v) as [c|] eqn:Hc.
  - exists (IPushC ty c). split; [reflexivity|]. intros s.
    rewrite <- (small_const_val ty v c Hty Hc Hz). reflexivity.
  - destruct v as [z|f|t]; [| |destruct Hty]; destruct Hty as [-> | ->]; cbn in Hk.
    + destruct (in_int z); [|discriminate Hk]. eexists; split; reflexivity.
    + destruct (in_long z); [|discriminate Hk]. eexists; split; reflexivity.
    + destruct (to_single f); [|discriminate Hk]. eexists; split; reflexivity.
    + eexists; split; reflexivity.
Qed.

Lemma push_lit_fixed_exec m ty v w : py_typed ty v -> checked ty v = Some w ->
  exists i, push_lit_fixed ty v = CgOk [i] /\ forall s, exec m i s = push ty v s.
Proof.
  intros Hty Hk. unfold push_lit_fixed. destruct (is_neg_zero v) eqn:Hz.
  - destruct v as [z|f|t]; try discriminate Hz. destruct Hty as [-> | ->]; eexists; split; reflexivity.
  - exact (push_lit_exec m ty v w Hty Hk Hz).
Qed.

Local Opaque checked push_lit push.

Lemma steps_push {m i pre ty w v} :
  checked ty w = Some v ->
  (forall s st0, exec m i (set_stack s (pre ++ st0)) = push ty w (set_stack s st0)) ->
  exists c, cell_of_val ty v = Some c /\ steps m [i] pre [c].
Proof.
  intros Hk He. destruct (push_checked _ _ _ Hk) as (c & Hc & Hp).
  exists c. split; [assumption|]. apply steps_one. intros s st0. rewrite He. apply Hp.
Qed.

Lemma conv_steps m from to v a c :
  conv_fixed from to v = FxV a -> cell_of_val from v = Some c ->
  exists ca, cell_of_val to a = Some ca /\ steps m (conv_code from to) [c] [ca].
Proof.
  intros H Hc. unfold conv_fixed in H. unfold conv_code.
  destruct (Z.eqb_spec from to) as [<- | _].
  - inversion H; subst a. exists c. split; [assumption | apply steps_nil].
  - apply cell_of_val_holds in Hc. destruct Hc as [z|z|f|f|t]; try discriminate H.
    1,2: apply fx_checked_some in H; apply (steps_push H); reflexivity.
    all: destruct ((to =? 1) || (to =? 2)) eqn:Et;
      [ destruct f as [| n | n mm e]; try discriminate H;
        destruct (fround (FFin n mm e)) as [z|] eqn:Ef; [|discriminate H]
      | ];
      apply fx_checked_some in H; apply (steps_push H);
      intros; cbn; rewrite Et, ?Ef; reflexivity.
Qed.

Lemma cmp_vals_range a b r : cmp_vals a b = Some r -> -1 <= r <= 1.
Proof.
  destruct a as [x|x|x|x|x|], b as [y|y|y|y|y|]; try discriminate; simpl.
  1,2: intros [= <-]; destruct (x ?= y); lia.
  1,2: intros [= <-]; destruct (fcmp x y) as [[]|]; lia.
  revert y r. induction x as [|c x IH]; intros [|d y] r H; try (injection H as <-; lia).
  destruct (c <? d); [injection H as <-; lia|]. destruct (c >? d); [injection H as <-; lia|].
  apply (IH y r H).
Qed.

Lemma push_int ty z s : ty = 1 \/ ty = 2 -> in_ty ty z = true ->
  push ty (PInt z) s = R tt (st_push s (cell_i ty z)).
Proof.
  intros Hty Hz. destruct (push_checked ty (PInt z) (PInt z)) as (c & Hc & Hp).
  - rewrite checked_int, Hz by assumption. reflexivity.
  - rewrite Hp. destruct Hty as [-> | ->]; inversion Hc; reflexivity.
Qed.

Lemma cmp_steps m ot a b ca cb r :
  cell_of_val ot a = Some ca -> cell_of_val ot b = Some cb -> cmp3 a b = Some r ->
  steps m [ICmp] [cb; ca] [CI r].
Proof.
  intros Ha Hb Hc.
  assert (Hv : cmp_vals ca cb = Some r /\ cell_ty ca = cell_ty cb).
  { apply cell_of_val_holds in Ha.
    destruct Ha; destruct b; try discriminate Hb; injection Hb as <-; split; auto. }
  destruct Hv as (Hv & Hty).
  apply steps_one. intros s st0. cbn -[cmp_vals push]. rewrite Hty, Z.eqb_refl, Hv.
  apply (push_int 1); [auto|]. apply in_int_iff. pose proof (cmp_vals_range _ _ _ Hv). lia.
Qed.

(* a comparison is cmp followed by one of eq .. ge, which read the sign of any
   INTEGER, not only of a three-way result *)
Lemma cmp_test_exec m op r : is_cmp op = true ->
  exists i, op_code op = [ICmp; i] /\
    forall s st0, exec m i (set_stack s ([CI r] ++ st0)) = push 1 (PInt (cmp_test op r)) (set_stack s st0).
Proof.
  intros Hop.
  destruct op; try discriminate Hop; eexists; (split; [reflexivity|]); intros s st0; cbn -[push].
  1,2: destruct (r =? 0); reflexivity.
  all: unfold Z.ltb, Z.gtb, Z.leb, Z.geb; destruct (r ?= 0); reflexivity.
Qed.

Local Opaque py_pow fadd fsub fmul fdiv.

Lemma binop_steps m op ot T a b w v ca cb :
  raw_op op a b = RawV w -> checked T w = Some v ->
  cell_of_val ot a = Some ca -> cell_of_val ot b = Some cb ->
  (if is_cmp op then T = 1 else T = ot) ->
  exists cv, cell_of_val T v = Some cv /\ steps m (op_code op) [cb; ca] [cv].
Proof.
  intros Hraw Hk Ha Hb HT. revert v Hk.
  enough (H : match raw_op op a b with
              | RawV w => forall v, checked T w = Some v ->
                  exists cv, cell_of_val T v = Some cv /\ steps m (op_code op) [cb; ca] [cv]
              | _ => True
              end) by (rewrite Hraw in H; exact H).
  (* raw_op is evaluated forwards: where it refuses there is nothing to show *)
  clear w Hraw. unfold raw_op.
  destruct (is_cmp op) eqn:Hcmp; subst T.
  - destruct (cmp3 a b) as [r|] eqn:Hc; [|exact I]. intros v Hk.
    destruct (cmp_test_exec m op r Hcmp) as (i & -> & Hi).
    destruct (steps_push Hk Hi) as (cv & Hv & Hs).
    exists cv. split; [assumption|]. exact (steps_app (cmp_steps m ot a b ca cb r Ha Hb Hc) Hs).
  - (* one instruction, by cases on the type and the operator *)
    apply cell_of_val_holds in Ha.
    destruct Ha as [x|x|x|x|x]; destruct b as [y|y|y]; try discriminate Hb; injection Hb as <-;
      destruct op; try discriminate Hcmp; try exact I; cbv beta iota.
    (* \ MOD / refuse a zero divisor, ^ what py_pow refuses *)
    all: try (destruct (y =? 0) eqn:Ey; [exact I|]).
    all: try (destruct (is_zero y) eqn:Ey; [exact I|]).
    all: try (destruct (py_pow _ _) eqn:Ep; try exact I).
    all: intros u Hk; apply (steps_push Hk); intros s st0; try reflexivity.
    (* left: the instructions that test the divisor, and ^ behind exp_tail's shortcut *)
    all: cbn -[push exp_tail]; rewrite ?exp_tail_same; unfold exp_tail_ref; cbn -[push].
    all: rewrite ?Ey, ?Ep; reflexivity.
Qed.

Lemma neg_steps m ty v w c :
  cell_of_val ty v = Some c ->
  match v with
  | PInt z => fx_checked ty (PInt (- z))
  | PFlt f => fx_checked ty (PFlt (fneg f))
  | PStrV _ => FxRefuse
  end = FxV w ->
  exists cw, cell_of_val ty w = Some cw /\ steps m [INeg] [c] [cw].
Proof.
  intros Hc Hk. apply cell_of_val_holds in Hc.
  destruct Hc; try discriminate Hk; apply fx_checked_some in Hk;
    apply (steps_push Hk); reflexivity.
Qed.

Lemma not_steps m ty z w c :
  cell_of_val ty (PInt z) = Some c -> fx_checked ty (PInt (Z.lnot z)) = FxV w ->
  exists cw, cell_of_val ty w = Some cw /\ steps m [INot] [c] [cw].
Proof.
  intros Hc Hk. apply cell_of_val_holds in Hc. apply fx_checked_some in Hk.
  inversion Hc; subst; apply (steps_push Hk); reflexivity.
Qed.

(* a literal the generated code loads as the very value the folder computes with *)
Definition plain_lit (ty : Z) (v : pyval) : Prop :=
  is_num ty = true /\ py_type_conv ty v = FVal v /\ checked ty v = Some v /\ is_neg_zero v = false.

Lemma plain_lit_run m ty v : plain_lit ty v ->
  exists i c, cg [] (CNum ty v) = CgOk [i] /\ cell_of_val ty v = Some c /\
              forall s, exec m i s = R tt (st_push s c).
Proof.
  intros (Hn & Hp & Hk & Hz).
  destruct (push_lit_exec m ty v v (py_type_conv_typed ty v v Hp) Hk Hz) as (i & Pi & Ei).
  destruct (push_checked _ _ _ Hk) as (c & Hc & Hpush).
  exists i, c. cbn [cg]. rewrite Hp. repeat split; auto. intros s. rewrite Ei. apply Hpush.
Qed.

(* no conversion is emitted: the two pushes, then the operator *)
Lemma rt_eval_lit_pair op ty va vb : plain_lit ty va -> plain_lit ty vb ->
  operand_type op ty ty = ty ->
  let m := expr_module [] in
  exists ca cb, cell_of_val ty va = Some ca /\ cell_of_val ty vb = Some cb /\
    rt_eval (CBin op (CNum ty va) (CNum ty vb)) =
    rres_of (run_instrs m (op_code op) (set_stack (init_state m empty_script) [cb; ca])).
Proof.
  intros Ha Hb Hot m.
  destruct (plain_lit_run m ty va Ha) as (ia & ca & Ga & Ca & Ea).
  destruct (plain_lit_run m ty vb Hb) as (ib & cb & Gb & Cb & Eb).
  exists ca, cb. repeat split; auto.
  unfold rt_eval, cg_expr. cbn [type_ok static_type lits_of]. rewrite (proj1 Ha). cbn [andb orb].
  cbn [cg] in Ga, Gb |- *. rewrite Ga, Gb. cbn [cg_app static_type]. rewrite Hot.
  unfold conv_code. rewrite Z.eqb_refl. cbn [app run_instrs]. fold m. unfold bind. rewrite Ea, Eb.
  reflexivity.
Qed.

(* the code generated for an operator on two literals of one type computes [raw_op]:
   where [checked] lets the result through at the node's type, it leaves that value's cell *)
Theorem lit_pair_run op ty T va vb w v : plain_lit ty va -> plain_lit ty vb ->
  operand_type op ty ty = ty -> (if is_cmp op then T = 1 else T = ty) ->
  raw_op op va vb = RawV w -> checked T w = Some v ->
  exists c, cell_of_val T v = Some c /\ rt_eval (CBin op (CNum ty va) (CNum ty vb)) = RVal c.
Proof.
  intros Ha Hb Hot HT Hr Hk.
  destruct (rt_eval_lit_pair op ty va vb Ha Hb Hot) as (ca & cb & Ca & Cb & E).
  destruct (binop_steps (expr_module []) op ty T va vb w v ca cb Hr Hk Ca Cb HT) as (c & Hc & Hs).
  exists c. split; [assumption|]. rewrite E.
  change [cb; ca] with ([cb; ca] ++ []). rewrite Hs. reflexivity.
Qed.

Definition sound_at (e : cexpr) : Prop :=
  (forall ty v, fold e = Folded ty v ->
     exists c, cell_of_val ty v = Some c /\ rt_eval e = RVal c) /\
  (forall code, rt_eval e = RTrap code -> fold e = NotFolded) /\
  (forall k, fold e <> CompilerCrash k).

Lemma sound_folded e ty v c :
  fold e = Folded ty v -> cell_of_val ty v = Some c -> rt_eval e = RVal c -> sound_at e.
Proof.
  intros Hf Hc Hr. unfold sound_at. rewrite Hf, Hr. repeat split; intros; try discriminate.
  inversion H; subst. eauto.
Qed.

Lemma sound_notfolded e : fold e = NotFolded -> sound_at e.
Proof. intros Hf. unfold sound_at. rewrite Hf. repeat split; intros; discriminate. Qed.

Lemma int_plain_lit ty z : ty = 1 \/ ty = 2 -> in_ty ty z = true -> plain_lit ty (PInt z).
Proof.
  intros Hty Hz. unfold plain_lit. rewrite checked_int, Hz by assumption.
  destruct Hty as [-> | ->]; auto.
Qed.

Lemma exec_lit_int m ty z : ty = 1 \/ ty = 2 -> in_ty ty z = true ->
  exists i, push_lit ty (PInt z) = CgOk [i] /\
            forall s, exec m i s = R tt (st_push s (cell_i ty z)).
Proof.
  intros Hty Hz.
  destruct (plain_lit_run m ty (PInt z) (int_plain_lit ty z Hty Hz)) as (i & c & G & Hc & E).
  exists i. destruct Hty as [-> | ->]; inversion Hc; subst c; auto.
Qed.

Definition int_ops : list binop :=
  [OAdd; OSub; OMul; OAnd; OOr; OXor; OEqv; OImp; OMod; OIntdiv; OEq; ONe; OLt; OGt; OLe; OGe].

Definition int_op (op : binop) : bool :=
  match op with ODiv | OExp => false | _ => true end.

Lemma int_ops_int_op op : In op int_ops -> int_op op = true.
Proof. unfold int_ops; simpl; intuition subst; reflexivity. Qed.

Definition long_raw (op : binop) (a b : Z) : Z :=
  match op with
  | OAdd => a + b | OSub => a - b | OMul => a * b | OIntdiv => a / b
  | OAnd => Z.land a b | OOr => Z.lor a b | OXor => Z.lxor a b
  | OEqv => Z.lnot (Z.lxor a b) | OImp => Z.lor (Z.lnot a) b
  | OMod => a mod b
  | _ => 0
  end.

(* Python's result of an operator of int_ops on two ints; None = ZeroDivisionError *)
Definition int_val (op : binop) (a b : Z) : option Z :=
  if is_cmp op then Some (cmp_int op a b)
  else if (is_mod op || is_intdiv op) && (b =? 0) then None
  else Some (long_raw op a b).

Lemma cmp_test_compare op a b : is_cmp op = true ->
  cmp_test op (match a ?= b with Eq => 0 | Lt => -1 | Gt => 1 end) = cmp_int op a b.
Proof.
  intros Hop. destruct op; try discriminate Hop; simpl;
    unfold Z.ltb, Z.gtb, Z.leb, Z.geb; rewrite ?Z.eqb_compare; destruct (a ?= b); reflexivity.
Qed.

Lemma raw_op_int op a b : int_op op = true ->
  raw_op op (PInt a) (PInt b) = match int_val op a b with Some x => RawV (PInt x) | None => RawRefuse end.
Proof.
  intros Hop. unfold raw_op, int_val. destruct (is_cmp op) eqn:Hc.
  - cbn [cmp3]. rewrite (cmp_test_compare op a b Hc). reflexivity.
  - destruct op; try discriminate; cbn; try reflexivity; destruct (b =? 0); reflexivity.
Qed.

Lemma limit_int lty T x : lty = 1 \/ lty = 2 -> T = 1 \/ T = 2 ->
  limit lty T (FVal (PInt x)) = if wrapok T x then FVal (PInt x) else FOverflow.
Proof. intros [-> | ->] [-> | ->]; reflexivity. Qed.

(* the operator table on two ints: comparisons are not range checked, the other results are *)
Lemma num_op_int op lty T a b : int_op op = true ->
  num_op op lty T (PInt a) (PInt b) =
  match int_val op a b with
  | Some x => if is_cmp op then FVal (PInt x) else limit lty T (FVal (PInt x))
  | None => FZeroDiv
  end.
Proof.
  intros Hop. unfold int_val.
  destruct op; try discriminate Hop; cbn; try reflexivity; destruct (b =? 0); reflexivity.
Qed.

Lemma fold_int_pair ty op a b : ty = 1 \/ ty = 2 -> int_op op = true ->
  fold (CBin op (CNum ty (PInt a)) (CNum ty (PInt b))) =
  match int_val op a b with
  | Some x => if is_cmp op then Folded 1 (PInt x)
              else if wrapok ty x then Folded ty (PInt x) else NotFolded
  | None => NotFolded
  end.
Proof.
  intros Hty Hop.
  assert (HT : bin_type op ty ty = if is_cmp op then 1 else ty)
    by (destruct Hty as [-> | ->]; destruct op; try discriminate Hop; reflexivity).
  unfold fold. cbn [fold_eval static_type]. rewrite HT.
  destruct (is_cmp op) eqn:Hc; destruct Hty as [-> | ->]; cbn -[num_op];
    rewrite (num_op_int op) by assumption; rewrite Hc;
    destruct (int_val op a b) as [x|]; try reflexivity;
    rewrite limit_int by auto; unfold wrapok; cbn -[wrap]; destruct (wrap _ x =? x); reflexivity.
Qed.

Lemma in_int_qbool b : in_int (qbool b) = true.
Proof. apply in_int_iff. destruct b; simpl; lia. Qed.

(* on two integer literals of one type the folder is sound as soon as its range
   test implies the machine's *)
Theorem int_pair_sound ty op a b : ty = 1 \/ ty = 2 -> int_op op = true ->
  in_ty ty a = true -> in_ty ty b = true ->
  (is_cmp op = false -> (is_mod op || is_intdiv op) && (b =? 0) = false ->
   wrapok ty (long_raw op a b) = true -> in_ty ty (long_raw op a b) = true) ->
  sound_at (CBin op (CNum ty (PInt a)) (CNum ty (PInt b))).
Proof.
  intros Hty Hop Ha Hb Hx.
  assert (Hot : operand_type op ty ty = ty)
    by (destruct Hty as [-> | ->]; destruct op; try discriminate Hop; reflexivity).
  pose proof (fun T w v => lit_pair_run op ty T _ _ w v
                (int_plain_lit ty a Hty Ha) (int_plain_lit ty b Hty Hb) Hot) as Hrun.
  pose proof (fold_int_pair ty op a b Hty Hop) as Hf.
  pose proof (raw_op_int op a b Hop) as Hr.
  unfold int_val in Hf, Hr. destruct (is_cmp op) eqn:Hc.
  - destruct (Hrun 1 _ (PInt (cmp_int op a b)) eq_refl Hr) as (c & Hcell & Hrt).
    + rewrite (checked_int 1) by auto. unfold in_ty; simpl. clear - Hc.
      destruct op; try discriminate Hc; simpl; rewrite in_int_qbool; reflexivity.
    + exact (sound_folded _ _ _ _ Hf Hcell Hrt).
  - destruct ((is_mod op || is_intdiv op) && (b =? 0)) eqn:Hz; [exact (sound_notfolded _ Hf)|].
    destruct (wrapok ty (long_raw op a b)) eqn:Hw; [|exact (sound_notfolded _ Hf)].
    destruct (Hrun ty _ (PInt (long_raw op a b)) eq_refl Hr) as (c & Hcell & Hrt).
    + rewrite checked_int, Hx by auto. reflexivity.
    + exact (sound_folded _ _ _ _ Hf Hcell Hrt).
Qed.

Theorem fold_sound_int : forall op a b, In op int_ops -> in_int a = true -> in_int b = true ->
  sound_at (CBin op (CNum 1 (PInt a)) (CNum 1 (PInt b))).
Proof.
  intros op a b Hop Ha Hb. apply (int_pair_sound 1); auto using int_ops_int_op.
  intros _ _ Hw. rewrite <- Hw. symmetry. apply wrap16_in_int.
Qed.

(* x in [-2^n, 2^n)  <->  x / 2^n is 0 or -1: closed under the bitwise operators *)
Lemma range_div n x : 0 < n -> (- 2 ^ n <= x < 2 ^ n <-> (x / 2 ^ n = 0 \/ x / 2 ^ n = -1)).
Proof.
  intros Hn. assert (0 < 2 ^ n) by (apply Z.pow_pos_nonneg; lia). split; intros; Z.to_euclidean_division_equations; nia.
Qed.

Lemma range_bitop (f : Z -> Z -> Z) n a b :
  0 < n ->
  (forall x y k, 0 <= k -> Z.shiftr (f x y) k = f (Z.shiftr x k) (Z.shiftr y k)) ->
  (forall x y, x = 0 \/ x = -1 -> y = 0 \/ y = -1 -> f x y = 0 \/ f x y = -1) ->
  - 2 ^ n <= a < 2 ^ n -> - 2 ^ n <= b < 2 ^ n -> - 2 ^ n <= f a b < 2 ^ n.
Proof.
  intros Hn Hs Hf Ha Hb.
  apply range_div in Ha; [|lia]. apply range_div in Hb; [|lia]. apply range_div; [lia|].
  rewrite <- !Z.shiftr_div_pow2 in * by lia. rewrite Hs by lia. apply Hf; assumption.
Qed.

Definition long_ops : list binop :=
  [OAnd; OOr; OXor; OEqv; OImp; OMod; OEq; ONe; OLt; OGt; OLe; OGe].

(* the operators whose result can leave the LONG range *)
Definition long_arith_ops : list binop := [OAdd; OSub; OMul; OIntdiv].

Lemma long_logical_in_long op a b : is_logical op = true ->
  in_long a = true -> in_long b = true -> in_long (long_raw op a b) = true.
Proof.
  intros Hop Ha Hb. apply in_long_iff in Ha. apply in_long_iff in Hb. apply in_long_iff.
  apply (range_bitop (long_raw op) 31); [reflexivity | | | assumption | assumption].
  - intros x y k Hk. destruct op; try discriminate Hop; cbn [long_raw].
    1-3: auto using Z.shiftr_land, Z.shiftr_lor, Z.shiftr_lxor.
    + rewrite <- Z.lnot_shiftr, Z.shiftr_lxor by exact Hk. reflexivity.
    + rewrite Z.shiftr_lor, <- Z.lnot_shiftr by exact Hk. reflexivity.
  - intros x y Hx Hy. destruct op; try discriminate Hop; destruct Hx as [-> | ->], Hy as [-> | ->]; auto.
Qed.

Lemma long_ops_in_long op a b : In op long_ops -> is_cmp op = false ->
  (is_mod op || is_intdiv op) && (b =? 0) = false ->
  in_long a = true -> in_long b = true -> in_long (long_raw op a b) = true.
Proof.
  intros Hop Hc Hz Ha Hb.
  destruct (is_logical op) eqn:Hl; [apply long_logical_in_long; assumption|].
  unfold long_ops in Hop; simpl in Hop; intuition subst; try discriminate.
  (* MOD: the remainder lies between 0 and the divisor *)
  apply in_long_iff in Hb. apply in_long_iff. simpl in Hz. cbn [long_raw].
  pose proof (Z.mod_bound_or a b) as Hm. clear - Hb Hz Hm. lia.
Qed.

(* the folder never refuses + - * on two LONG literals: its range test is 64 bits wide *)
Lemma fold_long_arith_always_folds : forall op a b, In op [OAdd; OSub; OMul] ->
  in_long a = true -> in_long b = true ->
  fold (CBin op (CNum 2 (PInt a)) (CNum 2 (PInt b))) = Folded 2 (PInt (long_raw op a b)).
Proof.
  intros op a b Hop Ha Hb. apply in_long_iff in Ha. apply in_long_iff in Hb.
  simpl in Hop. destruct Hop as [<- | [<- | [<- | []]]];
    rewrite (fold_int_pair 2) by auto; unfold int_val; simpl;
    rewrite wrap64_long; try reflexivity.
  1,2: lia.
  assert (Z.abs (a * b) <= 2 ^ 31 * 2 ^ 31)
    by (rewrite Z.abs_mul; apply Z.mul_le_mono_nonneg; lia).
  lia.
Qed.

Theorem static_bound_agrees : forall ty z, ty = 1 \/ ty = 2 -> in_ty ty z = true ->
  static_bound (CNum ty (PInt z)) = BVal z /\ rt_bound (CNum ty (PInt z)) = RVal (CL z).
Proof.
  intros ty z Hty Hz. split; [destruct Hty as [-> | ->]; reflexivity|].
  set (m := expr_module []).
  destruct (exec_lit_int m ty z Hty Hz) as (i & G & E).
  assert (Hcg : cg_expr (CNum ty (PInt z)) = CgOk [i]) by (destruct Hty as [-> | ->]; exact G).
  unfold rt_bound. rewrite Hcg.
  apply rres_steps, (steps_app (steps_one m i [] [cell_i ty z] (fun s st0 => E _))).
  destruct Hty as [-> | ->]; [|apply steps_nil].
  (* conv%& re-boxes an INTEGER bound as a LONG *)
  apply steps_one. intros s st0. apply (push_int 2); [auto|].
  apply in_int_iff in Hz. apply in_long_iff. lia.
Qed.

Definition dbl (x : fl) : cexpr := CNum 4 (PFlt x).

Lemma dbl_plain_lit x : x <> neg_zero -> plain_lit 4 (PFlt x).
Proof.
  intros Hx. repeat split. destruct x as [| |[] [| |] [| |]]; try reflexivity. contradiction Hx; reflexivity.
Qed.

Definition flop (op : binop) (x y : fl) : fl :=
  match op with OAdd => fadd x y | OSub => fsub x y | OMul => fmul x y | _ => fdiv x y end.

(* + - * / on two DOUBLE literals: both sides apply the same Fl operation to the
   same operands; a result that overflows to inf (or is NaN) is that same inf /
   NaN on both sides, DOUBLE cells hold every float and nothing traps *)
Theorem dbl_pair_sound op x y w : In op [OAdd; OSub; OMul; ODiv] ->
  x <> neg_zero -> y <> neg_zero -> raw_op op (PFlt x) (PFlt y) = RawV (PFlt w) ->
  fold (CBin op (dbl x) (dbl y)) = Folded 4 (PFlt w) /\
  rt_eval (CBin op (dbl x) (dbl y)) = RVal (CD w).
Proof.
  intros Hop Hx Hy Hr.
  pose proof (lit_pair_run op 4 4 _ _ (PFlt w) (PFlt w) (dbl_plain_lit x Hx) (dbl_plain_lit y Hy)) as Hrun.
  simpl in Hop. destruct Hop as [<- | [<- | [<- | [<- | []]]]];
    destruct (Hrun eq_refl eq_refl Hr eq_refl) as (c & [= <-] & Hrt);
    (split; [|exact Hrt]); cbn in Hr.
  4: unfold fold; cbn; destruct (is_zero y); [discriminate Hr|].
  all: injection Hr as <-; reflexivity.
Qed.

Lemma dbl_div_zero x y : x <> neg_zero -> y <> neg_zero -> is_zero y = true ->
  fold (CBin ODiv (dbl x) (dbl y)) = NotFolded /\
  rt_eval (CBin ODiv (dbl x) (dbl y)) = RTrap T_DIVISION_BY_ZERO.
Proof.
  intros Hx Hy Hz. split; [unfold fold; cbn; rewrite Hz; reflexivity|].
  destruct (rt_eval_lit_pair ODiv 4 _ _ (dbl_plain_lit x Hx) (dbl_plain_lit y Hy) eq_refl)
    as (ca & cb & Ca & Cb & E).
  inversion Ca; inversion Cb; subst ca cb. unfold dbl. rewrite E.
  cbn [op_code run_instrs]. unfold bind. cbn. rewrite Hz. reflexivity.
Qed.

(* operands of the witnesses in Props/C02_fold_part.v: the doubles nearest to 1.5, 1.6, ... *)
Definition f_1_5 : fl := FFin false 3 (-1).
Definition f_1_6 : fl := fl_of_bits 4609884578576439706.
Definition f_0_1 : fl := fl_of_bits 4591870180066957722.
Definition f_2_5 : fl := FFin false 5 (-1).
Definition f_3e10 : fl := fl_of_bits 4763665526503243776.
Definition f_1e10 : fl := fl_of_bits 4756540486875873280.
Definition f_3e38 : fl := fl_of_bits 5182576905729208970.

(* D01: 1.5 < 1.6 *)
Theorem fold_cmp_float_refuted :
  fold (CBin OLt (CNum 3 (PFlt f_1_5)) (CNum 3 (PFlt f_1_6))) = Folded 1 (PInt 0) /\
  rt_eval (CBin OLt (CNum 3 (PFlt f_1_5)) (CNum 3 (PFlt f_1_6))) = RVal (CI (-1)).
Proof. vm_compute. split; reflexivity. Qed.

Lemma str_index_spec s l : forall k i, str_index s l k = Some i ->
  k <= i /\ nth_error l (Z.to_nat (i - k)) = Some s.
Proof.
  induction l as [|x r IH]; intros k i H; simpl in H; [discriminate|].
  destruct (str_eqb x s) eqn:E.
  - inversion H; subst. apply str_eqb_eq in E. subst. split; [lia|].
    replace (i - i) with 0 by lia. reflexivity.
  - destruct (IH _ _ H) as (Hle & Hn). split; [lia|].
    replace (Z.to_nat (i - k)) with (S (Z.to_nat (i - (k + 1)))) by lia. exact Hn.
Qed.

Lemma str_index_in s l : forall k, In s l -> exists i, str_index s l k = Some i.
Proof.
  induction l as [|x r IH]; intros k H; [destruct H|]. simpl.
  destruct (str_eqb x s) eqn:E; [eauto|].
  destruct H as [-> | H]; [|eauto].
  assert (str_eqb s s = true) by (apply str_eqb_eq; reflexivity). congruence.
Qed.

Lemma str_steps m t : In t (m_literals m) ->
  exists i, str_index t (m_literals m) 0 = Some i /\ steps m [IPushStr i] [] [CStr t].
Proof.
  intros Hin. destruct (str_index_in t _ 0 Hin) as (i & Hi). exists i. split; [assumption|].
  destruct (str_index_spec _ _ _ _ Hi) as (Hle & Hn). rewrite Z.sub_0_r in Hn.
  apply steps_one. intros s st0. cbn. rewrite nthZ_nat, Hn by exact Hle. reflexivity.
Qed.

Lemma lits_of_incl e : forall acc, incl acc (lits_of e acc).
Proof.
  induction e; intros acc; simpl; auto using incl_refl.
  - destruct (str_index s acc 0); auto using incl_refl, incl_appl.
  - eapply incl_tran; [apply IHe1 | apply IHe2].
Qed.

Lemma lits_of_str t acc : In t (lits_of (CStrLit t) acc).
Proof.
  simpl. destruct (str_index t acc 0) eqn:E.
  - destruct (str_index_spec _ _ _ _ E) as (_ & Hn). exact (nth_error_In _ _ Hn).
  - apply in_or_app; right; left; reflexivity.
Qed.

Lemma bin_type_fixed_operand op lt rt :
  if is_cmp op then bin_type_fixed op lt rt = 1
  else bin_type_fixed op lt rt = operand_type_fixed op lt rt.
Proof. destruct op; reflexivity. Qed.

(* [acc] is the literal table as it stood before [e] was generated: the table
   of [m] need only contain what [e] adds to it *)
Lemma fixed_run m e : forall v acc,
  incl (lits_of e acc) (m_literals m) -> eval_fixed e = FxV v ->
  type_ok_fixed e = true /\
  exists l c, cg_fixed (m_literals m) e = CgOk l /\ cell_of_val (static_type_fixed e) v = Some c /\
    steps m l [] [c].
Proof.
  induction e as [ty v0 | t | op l IHl r IHr | op a IHa | a IHa]; intros v acc Hs He;
    cbn [eval_fixed] in He; cbn [type_ok_fixed cg_fixed static_type_fixed].
  - destruct (py_type_conv ty v0) as [v'| | | | |] eqn:Ep; try discriminate.
    destruct (is_num ty); [|discriminate]. apply fx_checked_some in He.
    destruct (push_lit_fixed_exec m ty v' v (py_type_conv_typed ty v0 v' Ep) He) as (i & Pi & Ei).
    destruct (steps_push (pre := []) He (fun s st0 => Ei _)) as (c & Hc & Rc).
    split; [reflexivity|]. exists [i], c. auto.
  - injection He as <-.
    destruct (str_steps m t (Hs t (lits_of_str t acc))) as (i & Hi & Ei).
    split; [reflexivity|]. exists [IPushStr i], (CStr t). rewrite Hi. repeat split; auto.
  - (* binary: left, conversion, right, conversion (both above the left operand), operator *)
    set (lt := static_type_fixed l) in *. set (rt := static_type_fixed r) in *.
    set (ot := operand_type_fixed op lt rt) in *.
    destruct ((is_num lt && is_num rt) || ((lt =? 5) && (rt =? 5) && (is_cmp op || is_add op)));
      [|discriminate]. cbn [negb] in He.
    pose proof (incl_tran (lits_of_incl r _) Hs) as Hsl.
    apply fx_bind_val in He as (lv & El & He). apply fx_bind_val in He as (xa & Ca & He).
    apply fx_bind_val in He as (rv & Er & He). apply fx_bind_val in He as (xb & Cb & He).
    destruct (raw_op op xa xb) as [w| |] eqn:Ho; try discriminate. apply fx_checked_some in He.
    destruct (IHl lv _ Hsl El) as (Tl & ll & cl & Gl & Vl & Rl).
    destruct (IHr rv _ Hs Er) as (Tr & lr & cr & Gr & Vr & Rr).
    destruct (conv_steps m lt ot lv xa cl Ca Vl) as (ca & Va & Rca).
    destruct (conv_steps m rt ot rv xb cr Cb Vr) as (cb & Vb & Rcb).
    destruct (binop_steps m op ot _ xa xb w v ca cb Ho He Va Vb (bin_type_fixed_operand op lt rt))
      as (cv & Vv & Rop).
    split; [rewrite Tl, Tr; reflexivity|].
    rewrite Gl, Gr. cbn [cg_app]. eexists; exists cv. repeat split; auto.
    apply (steps_app Rl), (steps_app Rca).
    apply (steps_app (steps_frame [ca] Rr)).
    exact (steps_app (steps_frame [ca] Rcb) Rop).
  - set (aty := static_type_fixed a) in *.
    destruct (is_num aty); [|discriminate]. cbn [negb] in He.
    apply fx_bind_val in He as (va & Ea & He).
    destruct (IHa va _ Hs Ea) as (Ta & la & ca & Ga & Va & Ra).
    split; [rewrite Ta; reflexivity|]. rewrite Ga. cbn [cg_app].
    destruct op; cbn [un_type].
    + destruct (neg_steps m aty va v ca Va He) as (cw & Vw & Rw).
      eexists; exists cw. repeat split; auto. exact (steps_app Ra Rw).
    + injection He as <-. exists la, ca. auto.
    + set (rty := if aty =? 1 then 1 else 2) in *.
      apply fx_bind_val in He as ([z| |] & Cw & He); try discriminate He.
      destruct (conv_steps m aty rty va (PInt z) ca Cw Va) as (cz & Vz & Rz).
      destruct (not_steps m rty z v cz Vz He) as (cw & Vw & Rw).
      eexists; exists cw. repeat split; auto.
      exact (steps_app Ra (steps_app Rz Rw)).
  - exact (IHa v _ Hs He).
Qed.

(* the folder after the fix: a folded literal is exactly the cell the generated
   code computes, for EVERY constant expression, operator, type and value *)
Theorem fold_fixed_sound : forall e ty v, fold_fixed e = Folded ty v ->
  exists c, cell_of_val ty v = Some c /\ rt_eval_fixed e = RVal c.
Proof.
  intros e ty v H. unfold fold_fixed in H.
  destruct (eval_fixed e) as [w| |] eqn:E; try discriminate. inversion H; subst.
  destruct (fixed_run (expr_module (lits_of e [])) e v [] (incl_refl _) E) as (Tok & l & c & G & V & Rn).
  exists c. split; [assumption|]. unfold rt_eval_fixed. rewrite Tok. cbn [negb].
  cbn [m_literals expr_module] in G. rewrite G. exact (rres_steps _ _ _ Rn).
Qed.
