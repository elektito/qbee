(* C14 - lexical model of QBASIC source text as qbee reads it, and the canonical
   respelling [canon].  No proofs here (Proofs/LexProofs.v).

   The pyparsing grammar (qbee/grammar.py) is not modelled as a parser; what is
   modelled is the way it cuts a text into lexical items:
     - blanks and tabs separate items and are otherwise ignored
       (set_default_whitespace_chars: blank and tab);
     - lines are cut at LF only (parser.py: input_string.split);
     - string literals: double quote, any characters but a double quote, double
       quote (an unclosed one runs to the end of the line);
     - an apostrophe starts a comment running to the end of the line; the keyword REM
       (CaselessKeyword: not followed by a letter, digit, _ or $) starts a
       comment statement running to the end of the line;
     - the keyword DATA is followed by a payload read verbatim up to the end of
       the line or a colon outside double quotes (data_clause / unquoted_string /
       unclosed_quoted_string);
     - identifiers / keywords are  letter alnum*  with an optional type
       character % & ! # $ glued to it (Combine(untyped_identifier + type_char));
       record fields are separate items (dot, then an identifier);
     - numbers: digits, dot, exponent with optional sign, &H.. / &O.., one
       optional type character;
     - the comparison operators are single items (one Regex):
       <= >= <> >< =< =>.
   The lexer is LOSSLESS: every item carries the blanks in front of it, so the
   text is the concatenation of the items (Props/C14.v: C14_lex_lossless). *)
From Coq Require Import ZArith List Bool.
From QV Require Import Sx Strs.
Import ListNotations.
Open Scope Z_scope.

(* ---- character classes ---- *)

Definition is_upper (c : Z) : bool := (65 <=? c) && (c <=? 90).
Definition is_lower (c : Z) : bool := (97 <=? c) && (c <=? 122).
Definition lower_ch (c : Z) : Z := if is_upper c then c + 32 else c.
Definition lower (s : str) : str := map lower_ch s.
Definition is_alpha (c : Z) : bool := is_upper c || is_lower c.
Definition is_alnum (c : Z) : bool := is_alpha c || is_digit c.
Definition is_numch (c : Z) : bool := is_alnum c || (c =? 46).
(* % & ! # $ *)
Definition is_numsuffix (c : Z) : bool := (c =? 37) || (c =? 38) || (c =? 33) || (c =? 35).
Definition is_suffix (c : Z) : bool := is_numsuffix c || (c =? 36).
Definition is_dollar (c : Z) : bool := c =? 36.
Definition is_sign (c : Z) : bool := (c =? 43) || (c =? 45).
Definition is_expch (c : Z) : bool := (lower_ch c =? 101) || (lower_ch c =? 100).
Definition is_ho (c : Z) : bool := (lower_ch c =? 104) || (lower_ch c =? 111).
Definition is_relch (c : Z) : bool := (c =? 60) || (c =? 61) || (c =? 62).
Definition is_nl (c : Z) : bool := c =? 10.
Definition not_nl (c : Z) : bool := negb (c =? 10).
Definition is_strch (c : Z) : bool := negb ((c =? 34) || (c =? 10)).
Definition is_colon (c : Z) : bool := c =? 58.

Definition hd_is (p : Z -> bool) (s : str) : bool :=
  match s with c :: _ => p c | [] => false end.
Definition ohd (p : Z -> bool) (oc : option Z) : bool :=
  match oc with Some c => p c | None => false end.
Definition onhd (p : Z -> bool) (oc : option Z) : bool := negb (ohd p oc).
Definition at_eol (oc : option Z) : bool :=
  match oc with None => true | Some c => c =? 10 end.
Definition is_nil {A} (l : list A) : bool := match l with [] => true | _ => false end.

Fixpoint span (p : Z -> bool) (s : str) : str * str :=
  match s with
  | [] => ([], [])
  | c :: r => if p c then let (a, b) := span p r in (c :: a, b) else ([], s)
  end.

Definition take_suffix (p : Z -> bool) (s : str) : str * str :=
  match s with
  | c :: r => if p c then ([c], r) else ([], s)
  | [] => ([], [])
  end.

Definition suf_ok (p : Z -> bool) (suf : str) : bool :=
  match suf with [] => true | [c] => p c | _ => false end.

Definition ends_exp (run : str) : bool :=
  match rev run with c :: _ => is_expch c | [] => false end.

(* ---- tokens (structured: the parts the lexer distinguishes) ---- *)

Inductive token : Type :=
| TWord (run suf : str)          (* keyword or identifier: letter alnum*, type character *)
| TNum (run ext suf : str)       (* digits/dot/letters run, exponent sign + digits, type character *)
| THex (run suf : str)           (* ampersand run suf  (&H.., &O..) *)
| TStr (body : str) (closed : bool)
| TOp (o : str)                  (* one character, or a two-character comparison operator *)
| TColon
| TData (kw payload : str)       (* DATA statement: keyword spelling + verbatim payload *)
| TRem (kw body : str)           (* REM comment statement *)
| TApos (body : str)             (* apostrophe comment *)
| TNewline.

Definition text (t : token) : str :=
  match t with
  | TWord run suf => run ++ suf
  | TNum run ext suf => run ++ ext ++ suf
  | THex run suf => 38 :: run ++ suf
  | TStr body true => 34 :: body ++ [34]
  | TStr body false => 34 :: body
  | TOp o => o
  | TColon => [58]
  | TData kw p => kw ++ p
  | TRem kw b => kw ++ b
  | TApos b => 39 :: b
  | TNewline => [10]
  end.

Definition kw_rem : str := [114; 101; 109].
Definition kw_data : str := [100; 97; 116; 97].
Definition is_rem (run : str) : bool := str_eqb (lower run) kw_rem.
Definition is_dat (run : str) : bool := str_eqb (lower run) kw_data.

(* DATA payload: up to the end of the line or a colon outside double quotes *)
Fixpoint scan_data (inq : bool) (s : str) : str * str :=
  match s with
  | [] => ([], [])
  | c :: r =>
    if (c =? 10) || (negb inq && (c =? 58)) then ([], s)
    else let (a, b) := scan_data (if c =? 34 then negb inq else inq) r in (c :: a, b)
  end.

Fixpoint data_ok (inq : bool) (p : str) : bool :=
  match p with
  | [] => true
  | c :: r => negb ((c =? 10) || (negb inq && (c =? 58)))
              && data_ok (if c =? 34 then negb inq else inq) r
  end.

(* quote state after the payload *)
Fixpoint data_inq (inq : bool) (p : str) : bool :=
  match p with
  | [] => inq
  | c :: r => data_inq (if c =? 34 then negb inq else inq) r
  end.

(* ---- one token; [c] is the first character, not a blank ---- *)

Definition lex_str (s : str) : token * str :=
  let (body, r) := span is_strch s in
  match r with
  | q :: r' => if q =? 34 then (TStr body true, r') else (TStr body false, r)
  | [] => (TStr body false, [])
  end.

Definition lex_num (c : Z) (s : str) : token * str :=
  let (run0, r) := span is_numch s in
  let run := c :: run0 in
  let (ext, r1) :=
    match r with
    | sg :: r' =>
      if is_sign sg && ends_exp run
      then let (run2, r2) := span is_alnum r' in (sg :: run2, r2)
      else ([], r)
    | [] => ([], [])
    end in
  let (suf, r2) := take_suffix is_numsuffix r1 in
  (TNum run ext suf, r2).

Definition lex_hex (s : str) : token * str :=
  let (run, r) := span is_alnum s in
  let (suf, r2) := take_suffix is_numsuffix r in
  (THex run suf, r2).

Definition lex_word (c : Z) (s : str) : token * str :=
  let (run0, r) := span is_alnum s in
  let run := c :: run0 in
  if is_rem run && negb (hd_is is_dollar r) then
    let (b, r') := span not_nl r in (TRem run b, r')
  else if is_dat run && negb (hd_is is_dollar r) then
    let (p, r') := scan_data false r in (TData run p, r')
  else
    let (suf, r2) := take_suffix is_suffix r in (TWord run suf, r2).

Definition lex_rel (c : Z) (s : str) : token * str :=
  match s with
  | d :: r => if is_relch d && negb (d =? c) then (TOp [c; d], r) else (TOp [c], s)
  | [] => (TOp [c], [])
  end.

Definition next_tok (c : Z) (s : str) : token * str :=
  if c =? 10 then (TNewline, s)
  else if c =? 34 then lex_str s
  else if c =? 39 then let (b, r) := span not_nl s in (TApos b, r)
  else if c =? 58 then (TColon, s)
  else if is_digit c || ((c =? 46) && hd_is is_digit s) then lex_num c s
  else if (c =? 38) && hd_is is_ho s then lex_hex s
  else if is_alpha c then lex_word c s
  else if is_relch c then lex_rel c s
  else (TOp [c], s).

(* ---- layout-preserving lexer ---- *)

Definition ltok : Type := (str * token)%type.   (* blanks in front, token *)

Fixpoint lexl (fuel : nat) (s : str) : list ltok * str :=
  match fuel with
  | O => ([], [])
  | S f =>
    let (ws, r) := span is_blank s in
    match r with
    | [] => ([], ws)
    | c :: r' =>
      let (t, rest) := next_tok c r' in
      let (l, tail) := lexl f rest in
      ((ws, t) :: l, tail)
    end
  end.

Definition lex_layout (s : str) : list ltok * str := lexl (S (length s)) s.

Definition lex (s : str) : list token := map snd (fst (lex_layout s)).

Fixpoint unlex (l : list ltok) (tail : str) : str :=
  match l with
  | [] => tail
  | (ws, t) :: l' => ws ++ text t ++ unlex l' tail
  end.

(* ---- the image of the lexer, characterised token by token ----
   [tok_ok t]: t is internally what the lexer produces;
   [stops t oc]: the lexer ends token t when the next character is oc
   (None = end of text). *)

Definition is_word (run : str) : bool :=
  match run with c :: r => is_alpha c && forallb is_alnum r | [] => false end.

Definition op_start (c : Z) : bool :=
  negb (is_blank c) && negb (c =? 10) && negb (c =? 34) && negb (c =? 39) && negb (c =? 58)
  && negb (is_digit c) && negb (is_alpha c).

Definition tok_ok (t : token) : bool :=
  match t with
  | TNewline | TColon => true
  | TStr body _ => forallb is_strch body
  | TApos b => forallb not_nl b
  | TRem kw b => is_word kw && is_rem kw && forallb not_nl b
                 && negb (hd_is is_dollar b) && negb (hd_is is_alnum b)
  | TData kw p => is_word kw && negb (is_rem kw) && is_dat kw && data_ok false p
                  && negb (hd_is is_dollar p) && negb (hd_is is_alnum p)
  | TWord run suf =>
      is_word run &&
      (if is_rem run || is_dat run then str_eqb suf [36] else suf_ok is_suffix suf)
  | TNum run ext suf =>
      match run with
      | c :: run0 =>
        (is_digit c || ((c =? 46) && hd_is is_digit run0)) && forallb is_numch run0
        && match ext with
           | [] => true
           | sg :: run2 => is_sign sg && ends_exp run && forallb is_alnum run2
           end
        && suf_ok is_numsuffix suf
      | [] => false
      end
  | THex run suf => hd_is is_ho run && forallb is_alnum run && suf_ok is_numsuffix suf
  | TOp [c] => op_start c
  | TOp [c; d] => is_relch c && is_relch d && negb (d =? c)
  | TOp _ => false
  end.

Definition stops (t : token) (oc : option Z) : bool :=
  match t with
  | TNewline | TColon => true
  | TStr _ closed => closed || at_eol oc
  | TApos _ | TRem _ _ => at_eol oc
  | TData _ p => at_eol oc || (negb (data_inq false p) && ohd is_colon oc)
  | TNum run ext suf =>
      negb (is_nil suf) ||
      (onhd is_numsuffix oc &&
       (if is_nil ext
        then onhd is_numch oc && negb (ends_exp run && ohd is_sign oc)
        else onhd is_alnum oc))
  | THex _ suf => negb (is_nil suf) || (onhd is_numsuffix oc && onhd is_alnum oc)
  | TWord _ suf => negb (is_nil suf) || (onhd is_suffix oc && onhd is_alnum oc)
  | TOp [c] =>
      if is_relch c then onhd (fun d => is_relch d && negb (d =? c)) oc
      else if c =? 46 then onhd is_digit oc
      else if c =? 38 then onhd is_ho oc
      else true
  | TOp _ => true
  end.

(* first character of a layout, [nxt] if it is empty *)
Definition hd_lay (l : list ltok) (nxt : option Z) : option Z :=
  match l with
  | [] => nxt
  | (ws, t) :: _ => hd_error (ws ++ text t)
  end.

Fixpoint lay_ok (l : list ltok) (nxt : option Z) : bool :=
  match l with
  | [] => true
  | (ws, t) :: l' =>
    forallb is_blank ws && tok_ok t && stops t (hd_lay l' nxt) && lay_ok l' nxt
  end.

(* ---- canonical respelling ---- *)

Definition norm_op (o : str) : str :=
  if str_eqb o [62; 60] then [60; 62]          (* >< -> <> *)
  else if str_eqb o [61; 60] then [60; 61]     (* =< -> <= *)
  else if str_eqb o [61; 62] then [62; 61]     (* => -> >= *)
  else o.

Definition norm_tok (t : token) : list token :=
  match t with
  | TWord run suf => [TWord (lower run) suf]
  | TOp o => [TOp (norm_op o)]
  | TData kw p => [TData (lower kw) p]
  | TRem kw _ => [TRem (lower kw) []]
  | TApos _ => []
  | _ => [t]
  end.

(* cut at TNewline; always at least one line *)
Fixpoint lines (l : list token) : list (list token) :=
  match l with
  | [] => [[]]
  | TNewline :: r => [] :: lines r
  | t :: r => match lines r with
              | h :: tl => (t :: h) :: tl
              | [] => [[t]]
              end
  end.

(* a line is dropped when nothing is left on it, or only a REM statement *)
Definition keep_line (l : list token) : bool :=
  match l with
  | [] => false
  | [TRem _ _] => false
  | _ => true
  end.

Definition normalise (toks : list token) : list (list token) :=
  filter keep_line (lines (flat_map norm_tok toks)).

Definition is_data_tok (t : token) : bool :=
  match t with TData _ _ => true | _ => false end.

(* one blank between tokens; a DATA payload is verbatim and already contains
   its own trailing blanks, so nothing is added after it *)
Fixpoint render_line (l : list token) : str :=
  match l with
  | [] => []
  | [t] => text t
  | t :: r => text t ++ (if is_data_tok t then [] else [32]) ++ render_line r
  end.

Definition render (ls : list (list token)) : str :=
  flat_map (fun l => render_line l ++ [10]) ls.

Definition canon (s : str) : str := render (normalise (lex s)).

(* ---- the catalogue of rewritings (relations on texts, through the layout) ---- *)

(* what may stand between the token before (last of l1) and the next token [t]
   with blanks [ws] in front of it: the lexer must still end the token before
   at that point *)
Definition last_tok (l : list ltok) : option token :=
  match rev l with (_, t) :: _ => Some t | [] => None end.

Definition sep_ok (l1 : list ltok) (ws : str) (t : token) : bool :=
  match last_tok l1 with
  | None => true
  | Some p => stops p (hd_error (ws ++ text t))
  end.

Definition tail_ok (l : list ltok) (tail : str) : bool :=
  match last_tok l with
  | None => true
  | Some p => stops p (hd_error tail)
  end.

(* at the start of a line *)
Definition line_start (l1 : list ltok) : bool :=
  match last_tok l1 with
  | None => true
  | Some TNewline => true
  | Some _ => false
  end.

Definition same_case (a b : str) : Prop := lower a = lower b.

(* r_case: respell the letters of one word (keyword, identifier, DATA or REM
   keyword) in another letter case *)
Inductive r_case : str -> str -> Prop :=
| rc_word : forall s l1 ws run suf l2 tail run',
    lex_layout s = (l1 ++ (ws, TWord run suf) :: l2, tail) ->
    same_case run run' ->
    r_case s (unlex (l1 ++ (ws, TWord run' suf) :: l2) tail)
| rc_data : forall s l1 ws kw p l2 tail kw',
    lex_layout s = (l1 ++ (ws, TData kw p) :: l2, tail) ->
    same_case kw kw' ->
    r_case s (unlex (l1 ++ (ws, TData kw' p) :: l2) tail)
| rc_rem : forall s l1 ws kw b l2 tail kw',
    lex_layout s = (l1 ++ (ws, TRem kw b) :: l2, tail) ->
    same_case kw kw' ->
    r_case s (unlex (l1 ++ (ws, TRem kw' b) :: l2) tail).

(* r_blank: replace the blanks/tabs in front of a token (or at the end of the
   text) by other blanks/tabs, possibly none - provided the token before still
   ends there ([sep_ok]: e.g. no blanks may be removed between two words, none
   added after a comment, a DATA payload or an unclosed string, where they
   would become part of that token) *)
Inductive r_blank : str -> str -> Prop :=
| rb_mid : forall s l1 ws t l2 tail ws',
    lex_layout s = (l1 ++ (ws, t) :: l2, tail) ->
    forallb is_blank ws' = true ->
    sep_ok l1 ws' t = true ->
    r_blank s (unlex (l1 ++ (ws', t) :: l2) tail)
| rb_tail : forall s l tail tail',
    lex_layout s = (l, tail) ->
    forallb is_blank tail' = true ->
    tail_ok l tail' = true ->
    r_blank s (unlex l tail').

Definition rem_body_ok (b : str) : bool :=
  forallb not_nl b && negb (hd_is is_dollar b) && negb (hd_is is_alnum b).

(* r_comment: change the text of a comment, add an apostrophe comment at the end of a
   line or of the text, add a line that is empty or holds only a comment *)
Inductive r_comment : str -> str -> Prop :=
| rm_apos_text : forall s l1 ws b l2 tail b',
    lex_layout s = (l1 ++ (ws, TApos b) :: l2, tail) ->
    forallb not_nl b' = true ->
    r_comment s (unlex (l1 ++ (ws, TApos b') :: l2) tail)
| rm_rem_text : forall s l1 ws kw b l2 tail b',
    lex_layout s = (l1 ++ (ws, TRem kw b) :: l2, tail) ->
    rem_body_ok b' = true ->
    r_comment s (unlex (l1 ++ (ws, TRem kw b') :: l2) tail)
| rm_add_eol : forall s l1 ws l2 tail ws1 b,
    lex_layout s = (l1 ++ (ws, TNewline) :: l2, tail) ->
    forallb is_blank ws1 = true ->
    forallb not_nl b = true ->
    sep_ok l1 ws1 (TApos b) = true ->
    r_comment s (unlex (l1 ++ (ws1, TApos b) :: ([], TNewline) :: l2) tail)
| rm_add_end : forall s l tail b,
    lex_layout s = (l, tail) ->
    forallb not_nl b = true ->
    sep_ok l tail (TApos b) = true ->
    r_comment s (unlex (l ++ [(tail, TApos b)]) [])
| rm_add_empty_line : forall s l1 l2 tail ws,
    lex_layout s = (l1 ++ l2, tail) ->
    line_start l1 = true ->
    forallb is_blank ws = true ->
    r_comment s (unlex (l1 ++ (ws, TNewline) :: l2) tail)
| rm_add_apos_line : forall s l1 l2 tail ws b,
    lex_layout s = (l1 ++ l2, tail) ->
    line_start l1 = true ->
    forallb is_blank ws = true ->
    forallb not_nl b = true ->
    r_comment s (unlex (l1 ++ (ws, TApos b) :: ([], TNewline) :: l2) tail)
| rm_add_rem_line : forall s l1 l2 tail ws kw b,
    lex_layout s = (l1 ++ l2, tail) ->
    line_start l1 = true ->
    forallb is_blank ws = true ->
    is_word kw && is_rem kw = true ->
    rem_body_ok b = true ->
    r_comment s (unlex (l1 ++ (ws, TRem kw b) :: ([], TNewline) :: l2) tail).

Definition is_relop2 (o : str) : bool :=
  match o with [c; d] => is_relch c && is_relch d && negb (d =? c) | _ => false end.

(* r_relop: the other spelling of a two-character comparison operator *)
Inductive r_relop : str -> str -> Prop :=
| rr_swap : forall s l1 ws o l2 tail o',
    lex_layout s = (l1 ++ (ws, TOp o) :: l2, tail) ->
    is_relop2 o = true -> is_relop2 o' = true ->
    norm_op o' = norm_op o ->
    sep_ok l1 ws (TOp o') = true ->
    r_relop s (unlex (l1 ++ (ws, TOp o') :: l2) tail).

Inductive rewrite1 : str -> str -> Prop :=
| rw_case : forall s s', r_case s s' -> rewrite1 s s'
| rw_blank : forall s s', r_blank s s' -> rewrite1 s s'
| rw_comment : forall s s', r_comment s s' -> rewrite1 s s'
| rw_relop : forall s s', r_relop s s' -> rewrite1 s s'.

(* finite compositions, in either direction (removing = inverse of adding) *)
Inductive rewrites : str -> str -> Prop :=
| rws_refl : forall s, rewrites s s
| rws_step : forall s s' s'', rewrite1 s s' -> rewrites s' s'' -> rewrites s s''
| rws_back : forall s s' s'', rewrite1 s' s -> rewrites s' s'' -> rewrites s s''.
