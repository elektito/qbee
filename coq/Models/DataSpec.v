(* C15: the SPECIFICATION (what the property demands), independent of how the
   code is organised.  Nothing here mentions tokeniser states, parts, part
   indices or the (part, index) cursor.
     1. the item grammar of a DATA text (fields, render, well-formedness);
     2. the extent of a DATA statement inside a line (a colon outside a
        quoted item ends it);
     3. READ / RESTORE on a program abstracted as the source-ordered list of
        Label / Data events: one flat item list, a position in it. *)
From Coq Require Import ZArith List Bool.
From QV Require Import Sx Strs Fl NumFmt Cell DataText DataDev.
Import ListNotations.
Open Scope Z_scope.

(* ---------- 1. the item grammar ----------
   text   ::= field { ',' field } [ ',' open ]   |   open
   field  ::= ws                      empty item
           |  ws u ws                 unquoted item u, trimmed
           |  ws Q q Q ws             quoted item q, verbatim (Q = the double quote)
   open   ::= ws Q q                  quoted item without closing quote (last field only)
   ws     ::= { ' ' | TAB } *)

Inductive field :=
| FEmpty (w : str)
| FPlain (w1 u w2 : str)
| FQuoted (w1 q w2 : str)
| FOpen (w1 q : str).

Definition all_blank (w : str) : bool := forallb is_blank w.
Definition no_char (c : Z) (s : str) : bool := forallb (fun x => negb (x =? c)) s.

Definition last_ch (s : str) : option Z :=
  match rev s with c :: _ => Some c | [] => None end.

(* an unquoted item: not empty, no comma, does not start with a blank or a
   quote, does not end with a blank *)
Definition plain_ok (u : str) : bool :=
  match u with
  | [] => false
  | c :: _ =>
    negb (is_blank c) && negb (c =? ch_quote) && no_char ch_comma u &&
    match last_ch u with Some d => negb (is_blank d) | None => false end
  end.

Definition field_ok (f : field) : bool :=
  match f with
  | FEmpty w => all_blank w
  | FPlain w1 u w2 => all_blank w1 && plain_ok u && all_blank w2
  | FQuoted w1 q w2 => all_blank w1 && no_char ch_quote q && all_blank w2
  | FOpen w1 q => all_blank w1 && no_char ch_quote q
  end.

Definition is_open (f : field) : bool :=
  match f with FOpen _ _ => true | _ => false end.

(* non-empty list of fields; an open field only in last position *)
Fixpoint fields_ok (fs : list field) : bool :=
  match fs with
  | [] => false
  | [f] => field_ok f
  | f :: r => field_ok f && negb (is_open f) && fields_ok r
  end.

Definition render_field (f : field) : str :=
  match f with
  | FEmpty w => w
  | FPlain w1 u w2 => w1 ++ u ++ w2
  | FQuoted w1 q w2 => w1 ++ ch_quote :: q ++ ch_quote :: w2
  | FOpen w1 q => w1 ++ ch_quote :: q
  end.

Fixpoint render (fs : list field) : str :=
  match fs with
  | [] => []
  | [f] => render_field f
  | f :: r => render_field f ++ ch_comma :: render r
  end.

Definition item_of (f : field) : ditem :=
  match f with
  | FEmpty _ => DEmpty
  | FPlain _ u _ => DItem u
  | FQuoted _ q _ => DItem q
  | FOpen _ q => DItem q
  end.

(* [items] are the items of the DATA text [t] *)
Definition data_items_spec (t : str) (items : list ditem) : Prop :=
  exists fs, fields_ok fs = true /\ render fs = t /\ map item_of fs = items.

(* the alphabet restriction under which the code's str.strip() is "trim blanks":
   no white-space character other than blank and TAB (\n \v \f \r \x1c-\x1f \x85 \xa0) *)
Definition plain_text (t : str) : bool :=
  forallb (fun c => negb (is_py_space c) || is_blank c) t.

(* ---------- 2. extent of the statement in a line ---------- *)

Inductive xmode := XStart | XPlain | XQuoted | XAfter.

(* (text of the statement, rest of the line starting at the colon),
   flag: a quote occurred inside an unquoted item *)
Fixpoint extent (m : xmode) (s : str) : str * str * bool :=
  match s with
  | [] => ([], [], false)
  | c :: r =>
    let go m' fl := let '(a, b, f) := extent m' r in (c :: a, b, fl || f) in
    match m with
    | XQuoted => if c =? ch_quote then go XAfter false else go XQuoted false
    | _ =>
      if c =? ch_colon then ([], s, false)
      else if c =? ch_comma then go XStart false
      else match m with
           | XStart => if is_blank c then go XStart false
                       else if c =? ch_quote then go XQuoted false
                       else go XPlain false
           | XPlain => go XPlain (c =? ch_quote)
           | _ => go XAfter false
           end
    end
  end.

(* the mode in which the statement text ends *)
Fixpoint end_mode (m : xmode) (s : str) : xmode :=
  match s with
  | [] => m
  | c :: r =>
    match m with
    | XQuoted => if c =? ch_quote then end_mode XAfter r else end_mode XQuoted r
    | _ =>
      if c =? ch_comma then end_mode XStart r
      else match m with
           | XStart => if is_blank c then end_mode XStart r
                       else if c =? ch_quote then end_mode XQuoted r
                       else end_mode XPlain r
           | XPlain => end_mode XPlain r
           | _ => end_mode XAfter r
           end
    end
  end.

Record stmt_spec := {
  ss_items : option (list ditem);   (* None: the text is not generated by the grammar *)
  ss_rest : str;                    (* from the terminating colon on; [] = whole line *)
  ss_inner_quote : bool;            (* a quote inside an unquoted item *)
  ss_lone_quote : bool              (* the text ends with an opening quote (empty open item) *)
}.

(* items by the reference tokeniser = the grammar above (Props/C15.v: C15_data_items_spec) *)
Definition stmt_of_line (s : str) : stmt_spec :=
  let '(t, rest, iq) := extent XStart s in
  {| ss_items := parse_data t;
     ss_rest := rest;
     ss_inner_quote := iq;
     ss_lone_quote := match end_mode XStart t, last_ch t with
                      | XQuoted, Some c => c =? ch_quote
                      | _, _ => false
                      end |}.

(* ---------- 3. READ / RESTORE ---------- *)

(* all items of all DATA statements in source order *)
Definition all_items (evs : list ev) : list ditem :=
  flat_map (fun e => match e with EData its => its | _ => [] end) evs.

(* number of items before module-level label l = position of the first item of
   the first DATA statement at or after the label (= length of all_items when
   no DATA follows).  None: no such module-level label. *)
Fixpoint label_pos (l : label) (evs : list ev) (n : nat) : option nat :=
  match evs with
  | [] => None
  | ELabel l' :: r => if str_eqb l l' then Some n else label_pos l r n
  | EData its :: r => label_pos l r (n + length its)
  | ESubLabel _ :: r => label_pos l r n
  end.

Inductive sending :=
| SDone
| SRuntimeError.        (* out of data, text into a numeric variable, value out of range *)

Fixpoint spec_run (evs : list ev) (pos : nat) (ops : list op) : list cell * sending :=
  match ops with
  | [] => ([], SDone)
  | ORead ty :: r =>
    match nth_error (all_items evs) pos with
    | None => ([], SRuntimeError)
    | Some it =>
      match convert ty it with
      | RVal c => let '(cs, e) := spec_run evs (S pos) r in (c :: cs, e)
      | _ => ([], SRuntimeError)
      end
    end
  | ORestore None :: r => spec_run evs 0 r
  | ORestore (Some l) :: r =>
    match label_pos l evs 0 with
    | Some n => spec_run evs n r
    | None => ([], SRuntimeError)      (* excluded by prog_valid *)
    end
  end.

(* a legal program: labels unique, every RESTORE target is a module-level label *)
Definition prog_valid (evs : list ev) (ops : list op) : bool :=
  negb (has_dup (labels_of evs)) &&
  forallb (fun l => mem_label l (main_labels_of evs)) (targets_of ops).

Inductive sres :=
| SRun (vals : list cell) (e : sending)
| SInvalid.                            (* must be rejected with a diagnostic *)

Definition spec_prog (evs : list ev) (ops : list op) : sres :=
  if prog_valid evs ops then let '(vs, e) := spec_run evs 0 ops in SRun vs e
  else SInvalid.

(* how an outcome of the code is read in the terms of the specification *)
Definition abstract_ending (e : ending) : option sending :=
  match e with
  | EDone => Some SDone
  | ETrap (RDevErr _) => Some SRuntimeError
  | ETrap RInvalidCell => Some SRuntimeError
  | ETrap _ => None
  end.

Definition abstract_pres (p : pres) : option sres :=
  match p with
  | PRun vs e => option_map (SRun vs) (abstract_ending e)
  | PCompile CDuplicateLabel => Some SInvalid
  | PCompile CLabelNotDefined => Some SInvalid
  | PCompile CValueError => None         (* an internal error is never the demanded behaviour *)
  end.

(* ---------- 4. guards used in the theorem statements (all decidable) ---------- *)

(* every DATA statement carries at least one item (always: C15_data_never_empty_list) *)
Definition data_nonempty (evs : list ev) : bool :=
  forallb (fun e => match e with EData [] => false | _ => true end) evs.

Definition parts_nonempty (d : dparts) : bool :=
  forallb (fun p => match p with [] => false | _ => true end) d.

(* every READ variable has one of the five scalar types (always so in a compiled program) *)
Definition ops_typed (ops : list op) : bool :=
  forallb (fun o => match o with ORead ty => (1 <=? ty) && (ty <=? 5) | _ => true end) ops.

(* no RESTORE without label (D11) *)
Definition no_bare_restore (ops : list op) : bool :=
  forallb (fun o => match o with ORestore None => false | _ => true end) ops.

(* the statement directly after module-level label l, skipping nothing, is a DATA (D12) *)
Fixpoint label_has_data (l : label) (evs : list ev) : bool :=
  match evs with
  | [] => false
  | ELabel l' :: r =>
    (str_eqb l l' && match r with EData _ :: _ => true | _ => false end) || label_has_data l r
  | _ :: r => label_has_data l r
  end.

Definition targets_own_data (evs : list ev) (ops : list op) : bool :=
  forallb (fun l => label_has_data l evs) (targets_of ops).
