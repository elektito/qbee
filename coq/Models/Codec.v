(* Binary module codec.
   - instruction level: [encode_w] (the assembler's operand packing, struct.pack
     formats of qbee/qvm_codegen.py QvmCode.assembled) against [Cpu.decode]
     (qvm/cpu.py get_instruction_at);
   - code level: [decode_code] walks a code section instruction by instruction;
   - section level: [encode_module] (QvmCode.__bytes__) and [decode_module]
     (qvm/module.py QModule.parse, parse_literals_section, parse_data_section,
     parse_globals_section) including their failure modes (perror = SystemExit,
     struct.error, UnboundLocalError).
   No proofs here (Proofs/CodecProofs.v). *)
From Coq Require Import String Ascii.
From Coq Require Import ZArith List Bool.
From QV Require Import Sx Strs Fl Machine Cpu Instrs.
Import ListNotations.
Open Scope Z_scope.

Definition len {A} (l : list A) : Z := Z.of_nat (List.length l).

Fixpoint s2l (s : string) : str :=
  match s with
  | EmptyString => []
  | String a r => Z.of_N (N_of_ascii a) :: s2l r
  end.

(* a string literal as its code points, computed when the definition is read, so
   that no Coq [string] remains in the models (and in the extracted code) *)
Notation L x := (ltac:(let v := eval vm_compute in (s2l x) in exact v)) (only parsing).

(* ------------------------------------------------------------------ *)
(* mnemonics (qvm/instrs.py names) of the hand-written instruction type *)

Definition tchar (ty : Z) : str :=
  if ty =? 1 then [37] else if ty =? 2 then [38] else if ty =? 3 then [33]
  else if ty =? 4 then [35] else if ty =? 5 then [36] else if ty =? 7 then [64] else [63].

Definition smallc (c : Z) : str :=
  if c =? -2 then L "m2" else if c =? -1 then L "m1" else if c =? 0 then L "0"
  else if c =? 1 then L "1" else if c =? 2 then L "2" else L "?".

Definition scope_ch (local_ : bool) : str := if local_ then L "l" else L "g".

Definition instr_name (i : instr) : str :=
  match i with
  | IAbs => L "abs" | IAdd => L "add" | IAllocarr _ _ => L "allocarr" | IAnd => L "and"
  | IArridx _ => L "arridx" | IAsc => L "asc" | ICall _ => L "call" | IChr => L "chr"
  | ICint => L "cint" | IClng => L "clng" | ICmp => L "cmp"
  | IConv s d => L "conv" ++ tchar s ++ tchar d
  | IDeref ty => L "deref" ++ tchar ty
  | IDiv => L "div" | IDupl => L "dupl" | IEq => L "eq" | IEqv => L "eqv"
  | IErrget => L "errget" | IErrhand _ => L "errhand" | IErrline => L "errline"
  | IErrraise => L "errraise" | IErrres => L "errres" | IErrresn => L "errresn"
  | IExp => L "exp" | IFrame _ _ => L "frame" | IGe => L "ge" | IGt => L "gt"
  | IHalt => L "halt" | IIdiv => L "idiv" | IIjmp => L "ijmp"
  | IInitarrg _ _ _ => L "initarrg" | IInitarrl _ _ _ => L "initarrl"
  | IInt => L "int" | IImp => L "imp" | IIo _ _ => L "io" | IJmp _ => L "jmp"
  | IJz _ => L "jz" | ILbound => L "lbound" | ILcase => L "lcase" | ILe => L "le"
  | ILt => L "lt" | ILtrim => L "ltrim" | IMod => L "mod" | IMul => L "mul"
  | INe => L "ne" | INeg => L "neg" | INop => L "nop" | INot => L "not"
  | INtos => L "ntos" | IOr => L "or" | IPop => L "pop"
  | IPushI _ => L "push%" | IPushL _ => L "push&" | IPushS _ => L "push!"
  | IPushD _ => L "push#" | IPushStr _ => L "push$"
  | IPushC ty c => L "push" ++ smallc c ++ tchar ty
  | IPushrefg _ => L "pushrefg" | IPushrefl _ => L "pushrefl"
  | IRead l ty _ => L "read" ++ scope_ch l ++ tchar ty
  | IReadidx l ty _ _ => L "readidx" ++ scope_ch l ++ tchar ty
  | IRefidx => L "refidx" | IRet => L "ret" | IRetv => L "retv" | IRtrim => L "rtrim"
  | ISdbl => L "sdbl" | ISign => L "sign" | ISpace => L "space" | ISub => L "sub"
  | IStore l _ => L "store" ++ scope_ch l
  | IStoreidx l _ _ => L "storeidx" ++ scope_ch l
  | IStoreref => L "storeref" | IStrfind => L "strfind" | IStrleft => L "strleft"
  | IStrlen => L "strlen" | IStrmid => L "strmid" | IStrrep => L "strrep"
  | IStrright => L "strright" | ISwap => L "swap" | ISwapprev => L "swapprev"
  | IUbound => L "ubound" | IUcase => L "ucase" | IXor => L "xor"
  end.

(* ------------------------------------------------------------------ *)
(* operand packing (struct.pack big endian); None = struct.error *)

Definition be16 (z : Z) : list Z := [z / 256; z mod 256].
Definition be32 (z : Z) : list Z := be16 (z / 65536) ++ be16 (z mod 65536).
Definition be64 (z : Z) : list Z := be32 (z / 4294967296) ++ be32 (z mod 4294967296).

Definition in_range (lo z hi : Z) : bool := (lo <=? z) && (z <=? hi).

Definition enc_u8 (z : Z) : option (list Z) := if in_range 0 z 255 then Some [z] else None.
Definition enc_u16 (z : Z) : option (list Z) := if in_range 0 z 65535 then Some (be16 z) else None.
Definition enc_i16 (z : Z) : option (list Z) :=
  if in_range (-32768) z 32767 then Some (be16 (if z <? 0 then z + 65536 else z)) else None.
Definition enc_u32 (z : Z) : option (list Z) := if in_range 0 z 4294967295 then Some (be32 z) else None.
Definition enc_i32 (z : Z) : option (list Z) :=
  if in_range (-2147483648) z 2147483647 then Some (be32 (if z <? 0 then z + 4294967296 else z)) else None.
Definition enc_u64 (z : Z) : option (list Z) :=
  if in_range 0 z 18446744073709551615 then Some (be64 z) else None.

Definition cat2 (a b : option (list Z)) : option (list Z) :=
  match a, b with Some x, Some y => Some (x ++ y) | _, _ => None end.

Definition op0 (op : Z) : option (list Z) := Some [op].
Definition op1 (op : Z) (a : option (list Z)) : option (list Z) := cat2 (Some [op]) a.
Definition op2 (op : Z) (a b : option (list Z)) : option (list Z) := cat2 (Some [op]) (cat2 a b).
Definition op3 (op : Z) (a b c : option (list Z)) : option (list Z) :=
  cat2 (Some [op]) (cat2 a (cat2 b c)).

(* the wire view of an instruction: what the byte stream determines.  The two
   float pushes carry their IEEE bit pattern (struct.pack('>f'/'>d') output) *)
Inductive winstr :=
| WI (i : instr)
| WPushS (bits : Z)
| WPushD (bits : Z).

Definition instr_of_w (w : winstr) : instr :=
  match w with
  | WI i => i
  | WPushS b => IPushS (fl_of_bits32 b)
  | WPushD b => IPushD (fl_of_bits b)
  end.

Definition w_of_instr (i : instr) : winstr :=
  match i with
  | IPushS f => WPushS (bits32_of_fl f)
  | IPushD f => WPushD (bits_of_fl f)
  | _ => WI i
  end.

Definition conv_opcode (s d : Z) : option Z :=
  if in_range 1 s 4 && in_range 1 d 4 && negb (s =? d)
  then Some (6 + (s - 1) * 3 + (if d <? s then d - 1 else d - 2)) else None.

Definition deref_opcode (ty : Z) : option Z :=
  if ty =? 1 then Some 18 else if in_range 2 ty 5 then Some (120 + ty) else None.

Definition ty_slot (ty : Z) : option Z :=     (* % & ! # $ @ -> 0..5 *)
  if in_range 1 ty 5 then Some (ty - 1) else if ty =? 7 then Some 5 else None.

Definition encode_plain (i : instr) : option (list Z) :=
  match i with
  | IAbs => op0 136 | IAdd => op0 2
  | IAllocarr n es => op2 101 (enc_u8 n) (enc_i32 es)
  | IAnd => op0 3
  | IArridx n => op1 4 (enc_u8 n)
  | IAsc => op0 121
  | ICall t => op1 5 (enc_u32 t)
  | IChr => op0 116 | ICint => op0 129 | IClng => op0 130 | ICmp => op0 105
  | IConv s d => match conv_opcode s d with Some o => op0 o | None => None end
  | IDeref ty => match deref_opcode ty with Some o => op0 o | None => None end
  | IDiv => op0 19 | IDupl => op0 103 | IEq => op0 20 | IEqv => op0 21 | IErrget => op0 138
  | IErrhand t => op1 139 (enc_u32 t)
  | IErrline => op0 141 | IErrraise => op0 142 | IErrres => op0 143 | IErrresn => op0 144
  | IExp => op0 22
  | IFrame p l => op2 23 (enc_u16 p) (enc_u16 l)
  | IGe => op0 24 | IGt => op0 102 | IHalt => op0 100 | IIdiv => op0 25 | IIjmp => op0 109
  | IInitarrg i n es => op3 126 (enc_u16 i) (enc_u8 n) (enc_i32 es)
  | IInitarrl i n es => op3 127 (enc_u16 i) (enc_u8 n) (enc_i32 es)
  | IInt => op0 111 | IImp => op0 26
  | IIo d o => op2 27 (enc_u8 d) (enc_u8 o)
  | IJmp t => op1 28 (enc_u32 t)
  | IJz t => op1 29 (enc_u32 t)
  | ILbound => op0 133 | ILcase => op0 115 | ILe => op0 30 | ILt => op0 31 | ILtrim => op0 131
  | IMod => op0 32 | IMul => op0 33 | INe => op0 34 | INeg => op0 35 | INop => op0 36
  | INot => op0 37 | INtos => op0 117 | IOr => op0 38 | IPop => op0 104
  | IPushI z => op1 39 (enc_i16 z)
  | IPushL z => op1 40 (enc_i32 z)
  | IPushS _ => None            (* wire form: WPushS *)
  | IPushD _ => None            (* wire form: WPushD *)
  | IPushStr idx => op1 43 (enc_u16 idx)      (* written '>H'; the machine reads '>h' *)
  | IPushC ty c =>
    if in_range 1 ty 4 && in_range (-2) c 2 then op0 (44 + (c + 2) * 4 + (ty - 1)) else None
  | IPushrefg i => op1 64 (enc_u16 i)
  | IPushrefl i => op1 65 (enc_u16 i)
  | IRead l ty i =>
    match ty_slot ty with
    | Some k => op1 ((if l then 72 else 66) + k) (enc_u16 i)
    | None => None
    end
  | IReadidx l ty v i =>
    match ty_slot ty with
    | Some k => op2 ((if l then 84 else 78) + k) (enc_u16 v) (enc_u16 i)
    | None => None
    end
  | IRefidx => op0 90 | IRet => op0 91 | IRetv => op0 92 | IRtrim => op0 132 | ISdbl => op0 113
  | ISign => op0 106 | ISpace => op0 112 | ISub => op0 93
  | IStore l i => op1 (if l then 95 else 94) (enc_u16 i)
  | IStoreidx l v i => op2 (if l then 97 else 96) (enc_u16 v) (enc_u16 i)
  | IStoreref => op0 98 | IStrfind => op0 135 | IStrleft => op0 118 | IStrlen => op0 110
  | IStrmid => op0 120 | IStrrep => op0 128 | IStrright => op0 119 | ISwap => op0 107
  | ISwapprev => op0 108 | IUbound => op0 134 | IUcase => op0 114 | IXor => op0 99
  end.

Definition encode_w (w : winstr) : option (list Z) :=
  match w with
  | WI i => encode_plain i
  | WPushS b => op1 41 (enc_u32 b)
  | WPushD b => op1 42 (enc_u64 b)
  end.

Definition encode_instr (i : instr) : option (list Z) := encode_w (w_of_instr i).

(* the machine reads the push$ operand signed: indices above 32767 do not
   survive (D30) *)
Definition pushstr_small (w : winstr) : Prop :=
  match w with WI (IPushStr idx) => idx <= 32767 | _ => True end.
Definition pushstr_smallb (w : winstr) : bool :=
  match w with WI (IPushStr idx) => idx <=? 32767 | _ => true end.

Fixpoint encode_code (ws : list winstr) : option (list Z) :=
  match ws with
  | [] => Some []
  | w :: r => cat2 (encode_w w) (encode_code r)
  end.

(* ------------------------------------------------------------------ *)
(* walking a code section *)

Inductive cresult :=
| COk (l : list (Z * instr))
| CUnknown (off op : Z)        (* unknown opcode at off *)
| CTrunc (off : Z).            (* operand bytes missing *)

Fixpoint decode_code_from (fuel : nat) (off : Z) (bs : list Z) : cresult :=
  match bs with
  | [] => COk []
  | b0 :: _ =>
    match fuel with
    | O => CTrunc off
    | S f =>
      match decode bs with
      | DOk i n =>
        match decode_code_from f (off + n) (skipn (Z.to_nat n) bs) with
        | COk r => COk ((off, i) :: r)
        | e => e
        end
      | DUnknown => CUnknown off b0
      | DTrunc => CTrunc off
      end
    end
  end.

Definition decode_code (bs : list Z) : cresult := decode_code_from (List.length bs) 0 bs.

(* (offset, instruction) pairs of a wire instruction list starting at off *)
Fixpoint with_offsets (off : Z) (ws : list winstr) : list (Z * instr) :=
  match ws with
  | [] => []
  | w :: r =>
    (off, instr_of_w w) ::
    with_offsets (off + match encode_w w with Some bs => len bs | None => 0 end) r
  end.

(* ------------------------------------------------------------------ *)
(* cp437 *)

Definition cp_dec (b : Z) : Z := cp437_decode cp437_upper b.

Fixpoint index_from (c : Z) (l : list Z) (i : Z) : option Z :=
  match l with
  | [] => None
  | x :: r => if x =? c then Some i else index_from c r (i + 1)
  end.

(* str.encode('cp437') of one character; None = UnicodeEncodeError *)
Definition cp_enc (c : Z) : option Z :=
  if in_range 0 c 127 then Some c
  else match index_from c cp437_upper 0 with Some i => Some (128 + i) | None => None end.

(* ------------------------------------------------------------------ *)
(* sections: writer *)

Inductive eres (A : Type) :=
| EOk (a : A)
| EStructError          (* struct.error: a count or length outside its field *)
| EUnicodeError.        (* UnicodeEncodeError: a character outside cp437 *)
Arguments EOk {A}. Arguments EStructError {A}. Arguments EUnicodeError {A}.

Definition ebind {A B} (x : eres A) (f : A -> eres B) : eres B :=
  match x with EOk a => f a | EStructError => EStructError | EUnicodeError => EUnicodeError end.

Definition enc_text (s : str) : eres (list Z) :=
  match map_opt cp_enc s with Some bs => EOk bs | None => EUnicodeError end.

(* struct.pack('>H', len(literal)) + literal.encode('cp437') *)
Definition enc_literal (s : str) : eres (list Z) :=
  if 65535 <? len s then EStructError
  else ebind (enc_text s) (fun bs => EOk (be16 (len s) ++ bs)).

Fixpoint enc_literals (ls : list str) : eres (list Z) :=
  match ls with
  | [] => EOk []
  | s :: r => ebind (enc_literal s) (fun a => ebind (enc_literals r) (fun b => EOk (a ++ b)))
  end.

(* struct.pack('>h', -1) | struct.pack('>h', len(item)) + item.encode('cp437') *)
Definition enc_item (it : ditem) : eres (list Z) :=
  match it with
  | DEmpty => EOk [255; 255]
  | DText s =>
    if 32767 <? len s then EStructError
    else ebind (enc_text s) (fun bs => EOk (be16 (len s) ++ bs))
  end.

Fixpoint enc_items (l : list ditem) : eres (list Z) :=
  match l with
  | [] => EOk []
  | it :: r => ebind (enc_item it) (fun a => ebind (enc_items r) (fun b => EOk (a ++ b)))
  end.

(* struct.pack('>h', len(data_part)) + items *)
Definition enc_part (p : list ditem) : eres (list Z) :=
  if 32767 <? len p then EStructError
  else ebind (enc_items p) (fun bs => EOk (be16 (len p) ++ bs)).

Fixpoint enc_parts (l : list (list ditem)) : eres (list Z) :=
  match l with
  | [] => EOk []
  | p :: r => ebind (enc_part p) (fun a => ebind (enc_parts r) (fun b => EOk (a ++ b)))
  end.

(* struct.pack('>H', len(self._data)) + parts *)
Definition enc_data (d : list (list ditem)) : eres (list Z) :=
  if 65535 <? len d then EStructError
  else ebind (enc_parts d) (fun bs => EOk (be16 (len d) ++ bs)).

Record bmod := mkBmod {
  b_literals : list str;
  b_data : list (list ditem);
  b_nglobals : Z;
  b_code : list Z;              (* bytes *)
}.

(* bytes([id]) + struct.pack('>I', len(section)) + section *)
Definition enc_section (id : Z) (body : list Z) : eres (list Z) :=
  if 4294967295 <? len body then EStructError else EOk (id :: be32 (len body) ++ body).

(* QvmCode.__bytes__ without the debug section: the section bodies are built
   first (literals, data, globals, code), then framed *)
Definition encode_module (m : bmod) : eres (list Z) :=
  ebind (enc_literals (b_literals m)) (fun lits =>
  ebind (enc_data (b_data m)) (fun dat =>
  ebind (if in_range 0 (b_nglobals m) 4294967295 then EOk (be32 (b_nglobals m)) else EStructError)
        (fun glb =>
  ebind (enc_section 1 lits) (fun s1 =>
  ebind (enc_section 2 dat) (fun s2 =>
  ebind (enc_section 3 glb) (fun s3 =>
  ebind (enc_section 4 (b_code m)) (fun s4 =>
  EOk (s1 ++ s2 ++ s3 ++ s4)))))))).

(* ------------------------------------------------------------------ *)
(* sections: reader *)

Inductive pres (A : Type) :=
| POk (a : A)
| PExit                 (* perror(...) -> exit(1) *)
| PStructError          (* struct.error: unpack of a short slice *)
| PUnbound.             (* UnboundLocalError: no globals section *)
Arguments POk {A}. Arguments PExit {A}. Arguments PStructError {A}. Arguments PUnbound {A}.

Definition pbind {A B} (x : pres A) (f : A -> pres B) : pres B :=
  match x with POk a => f a | PExit => PExit | PStructError => PStructError | PUnbound => PUnbound end.

(* a Python slice section[idx:idx+size] followed by idx += size: the taken
   bytes, the remaining bytes and whether idx went past the end *)
Definition take (size : Z) (bs : list Z) : list Z * list Z * bool :=
  let n := Z.to_nat size in
  let v := firstn n bs in
  (v, skipn n bs, len v <? size).

(* parse_literals_section: while idx < len(section) *)
Fixpoint parse_literals (fuel : nat) (bs : list Z) : pres (list str) :=
  match bs with
  | [] => POk []
  | _ =>
    match fuel with
    | O => PExit
    | S f =>
      match u16 bs with
      | None => PStructError
      | Some (size, r) =>
        let '(v, r', over) := take size r in
        if over then PExit            (* idx > len: loop ends, idx != len(section) *)
        else pbind (parse_literals f r') (fun ls => POk (map cp_dec v :: ls))
      end
    end
  end.

(* one item; state = (remaining bytes, idx already past the end) *)
Definition parse_item (st : list Z * bool) : pres (ditem * (list Z * bool)) :=
  let '(bs, over) := st in
  if over then PStructError           (* empty slice *)
  else match i16 bs with
       | None => PStructError
       | Some (size, r) =>
         if size <? 0 then POk (DEmpty, (r, false))
         else let '(v, r', over') := take size r in
              POk (DText (map cp_dec v), (r', over'))
       end.

Fixpoint parse_items (n : nat) (st : list Z * bool) : pres (list ditem * (list Z * bool)) :=
  match n with
  | O => POk ([], st)
  | S n' =>
    pbind (parse_item st) (fun '(it, st') =>
    pbind (parse_items n' st') (fun '(its, st'') => POk (it :: its, st'')))
  end.

Definition parse_part (st : list Z * bool) : pres (list ditem * (list Z * bool)) :=
  let '(bs, over) := st in
  if over then PStructError
  else match u16 bs with
       | None => PStructError
       | Some (nitems, r) => parse_items (Z.to_nat nitems) (r, false)
       end.

Fixpoint parse_parts (n : nat) (st : list Z * bool) : pres (list (list ditem) * (list Z * bool)) :=
  match n with
  | O => POk ([], st)
  | S n' =>
    pbind (parse_part st) (fun '(p, st') =>
    pbind (parse_parts n' st') (fun '(ps, st'') => POk (p :: ps, st'')))
  end.

Definition parse_data (bs : list Z) : pres (list (list ditem)) :=
  match u16 bs with
  | None => PStructError
  | Some (nparts, r) =>
    pbind (parse_parts (Z.to_nat nparts) (r, false)) (fun '(ps, (rest, over)) =>
    match rest, over with
    | [], false => POk ps
    | _, _ => PExit                   (* idx != len(section) *)
    end)
  end.

Definition parse_globals (bs : list Z) : pres Z :=
  match bs with
  | [_; _; _; _] => match u32 bs with Some (v, _) => POk v | None => PStructError end
  | _ => PExit
  end.

Record pstate := mkPstate {
  ps_literals : list str;
  ps_data : list (list ditem);
  ps_nglobals : option Z;
  ps_code : list Z;
  ps_seen : list Z;
}.

Definition ps_init : pstate := mkPstate [] [] None [] [].

Definition zmem (z : Z) (l : list Z) : bool := existsb (Z.eqb z) l.

(* QModule.parse: while idx < len(bcode).  A debug section (5) is outside this
   model: its body is skipped and its presence reported *)
Fixpoint parse_sections (fuel : nat) (bs : list Z) (st : pstate) : pres pstate :=
  match bs with
  | [] => POk st
  | ty :: r0 =>
    match fuel with
    | O => PExit
    | S f =>
      if zmem ty (ps_seen st) then PExit else
      match u32 r0 with
      | None => PStructError
      | Some (slen, r1) =>
        (* the slice is clamped to the input so that a huge length field costs nothing *)
        let '(body, rest, over) := take (Z.min slen (len r1 + 1)) r1 in
        if over then PExit else
        let seen := ty :: ps_seen st in
        pbind
          (if ty =? 1 then
             pbind (parse_literals (List.length body) body) (fun ls =>
             POk (mkPstate ls (ps_data st) (ps_nglobals st) (ps_code st) seen))
           else if ty =? 2 then
             pbind (parse_data body) (fun d =>
             POk (mkPstate (ps_literals st) d (ps_nglobals st) (ps_code st) seen))
           else if ty =? 3 then
             pbind (parse_globals body) (fun g =>
             POk (mkPstate (ps_literals st) (ps_data st) (Some g) (ps_code st) seen))
           else if ty =? 4 then
             POk (mkPstate (ps_literals st) (ps_data st) (ps_nglobals st) body seen)
           else if ty =? 5 then
             POk (mkPstate (ps_literals st) (ps_data st) (ps_nglobals st) (ps_code st) seen)
           else PExit)
          (fun st' => parse_sections f rest st')
      end
    end
  end.

(* result: the module and whether a debug section was present *)
Definition decode_module_dbg (bs : list Z) : pres (bmod * bool) :=
  pbind (parse_sections (List.length bs) bs ps_init) (fun st =>
  match ps_nglobals st with
  | None => PUnbound
  | Some g => POk (mkBmod (ps_literals st) (ps_data st) g (ps_code st), zmem 5 (ps_seen st))
  end).

Definition decode_module (bs : list Z) : pres bmod :=
  pbind (decode_module_dbg bs) (fun '(m, _) => POk m).

(* ------------------------------------------------------------------ *)
(* field widths (the guard of C09_decode_encode_module) *)

Definition text_ok (s : str) : Prop := Forall (fun c => cp_enc c <> None) s.
Definition byte_ok (b : Z) : Prop := 0 <= b <= 255.

Definition item_ok (it : ditem) : Prop :=
  match it with DEmpty => True | DText s => len s <= 32767 /\ text_ok s end.

Definition lit_size (s : str) : Z := 2 + len s.
Definition item_size (it : ditem) : Z := match it with DEmpty => 2 | DText s => 2 + len s end.
Definition sumZ (l : list Z) : Z := fold_right Z.add 0 l.
Definition part_size (p : list ditem) : Z := 2 + sumZ (map item_size p).

Record sizes_ok (m : bmod) : Prop := mkSizesOk {
  so_lit : Forall (fun s => len s <= 65535 /\ text_ok s) (b_literals m);
  so_lit_sec : sumZ (map lit_size (b_literals m)) <= 4294967295;
  so_parts : len (b_data m) <= 65535;             (* '>H' written, '>H' read *)
  so_part : Forall (fun p => len p <= 32767 /\ Forall item_ok p) (b_data m);
                                                  (* '>h' written, '>H' read *)
  so_data_sec : 2 + sumZ (map part_size (b_data m)) <= 4294967295;
  so_glob : 0 <= b_nglobals m <= 4294967295;
  so_code : Forall byte_ok (b_code m);
  so_code_sec : len (b_code m) <= 4294967295;
}.
